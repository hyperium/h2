(* Property C12 (frame codec): statements; the proofs are in Proofs/, every theorem is closed under the
   global context.  Model: Model/{FrameCodec,ReadBuf,WriteBuf}.v (h2's src/frame/*.rs and
   src/codec/*.rs); reference: Ref/Rfc9113Frame.v (RFC 9113 sections 4.1, 4.2, 4.3, 6). *)
From H2V Require Import Base.Tac Base.Bytes Gen.FrameConsts Ref.Rfc9113Frame Model.FrameCodec Model.WriteBuf
  Model.ReadBuf Proofs.WriteBufProofs Proofs.FrameCodecProofs Proofs.ReadBufProofs.
Local Open Scope N_scope.

(* every frame an endpoint serialises is parsed back to the same frame by the independent RFC 9113
   parser, and by the model of h2's own parser *)
Theorem C12_roundtrip : forall max f,
  42 <= max -> max <= MAX_MAX_FRAME_SIZE ->
  frame_wf max f = true -> single_frame max f = true ->
  exists bs,
    encode max f = EOk bs /\
    rfc_parse_frame max bs = Accept (wire_value_of f) /\
    model_parse max bs = POk (LdFrame f).
Proof. exact FrameCodecProofs.C12_roundtrip. Qed.

(* ... including HEADERS / PUSH_PROMISE split into CONTINUATION frames: reference splitter, parser and
   reassembly give back the value that was sent *)
Theorem C12_roundtrip_stream : forall max f,
  42 <= max -> max <= MAX_MAX_FRAME_SIZE -> frame_wf max f = true ->
  exists bs, encode max f = EOk bs /\ rfc_decode_stream max bs = Some [wire_value_of f].
Proof. exact ReadBufProofs.C12_roundtrip_stream. Qed.

(* every octet string is given the same verdict, and on acceptance the same value, by the model of
   h2's frame loader and by the RFC grammar at the codec boundary (RST_STREAM / CONTINUATION on
   stream 0 are handed up and refused by the stream layer / the reassembly) -- no exception *)
Theorem C12_parse_agrees_with_rfc : forall max bs,
  bytes_ok bs = true ->
  agree (model_parse max bs) (rfc_parse_frame_codec max bs) = true.
Proof. exact FrameCodecProofs.C12_parse_agrees_with_rfc. Qed.

(* the codec-boundary grammar differs from the plain grammar only by deferring those two refusals *)
Theorem C12_codec_boundary_only_defers : forall max bs w,
  rfc_parse_frame_codec max bs = Accept w ->
  rfc_parse_frame max bs = Accept w \/
  (deferred_to_upper_layer w = true /\ rfc_parse_frame max bs = Reject PROTOCOL_ERROR).
Proof. exact FrameCodecProofs.codec_boundary_only_defers. Qed.

(* ... and the deferred CONTINUATION on stream 0 is always refused by decode_frame *)
Theorem C12_continuation_stream_zero_refused :
  forall (HS : Type) (ops : hpack_ops HS) mh mc pt hs bytes h payload,
  parse_head bytes = Some (h, payload) -> kind_new (h_kind h) = KContinuation -> h_sid h = 0 ->
  match pt with Some p => frame_sid (pt_frame p) <> 0 | None => True end ->
  snd (decode_frame ops mh mc pt hs bytes) = go_away_protocol.
Proof.
  intros HS ops mh mc pt hs bytes h payload E K Hz Hp. destruct pt as [p|].
  - rewrite (continuation_other_stream ops mh mc p hs bytes h payload E K) by congruence. reflexivity.
  - rewrite continuation_unexpected; [reflexivity|]. unfold is_continuation. rewrite E, K. reflexivity.
Qed.

Theorem C12_parse_never_panics : forall max bs, model_parse max bs <> PPanic.
Proof.
  intros max bs.
  unfold model_parse. destruct bs as [|l0 [|l1 [|l2 r]]]; try discriminate.
  destruct (max <? _); [discriminate|].
  destruct (lenN (l0 :: l1 :: l2 :: r) =? _) eqn:E; [|discriminate].
  apply N.eqb_eq in E. apply load_frame_never_panics. unfold ld_length_adjustment in E. lia.
Qed.

Theorem C12_load_never_panics : forall bs, 9 <= lenN bs -> load_frame bs <> PPanic.
Proof. exact FrameCodecProofs.load_frame_never_panics. Qed.

(* however the transport splits the reads, the reader yields the same events and ends in the same state *)
Theorem C12_read_chunking : forall (HS : Type) (ops : hpack_ops HS) chunks (st : rstate HS) bs,
  settled ops st -> concat chunks = bs ->
  feed_all ops st chunks = feed_all ops st [bs].
Proof. exact @ReadBufProofs.C12_read_chunking. Qed.

Theorem C12_read_chunking_init : forall (HS : Type) (ops : hpack_ops HS) hs0 max_frame max_hls chunks,
  feed_all ops (rinit hs0 max_frame max_hls) chunks = feed_all ops (rinit hs0 max_frame max_hls) [concat chunks].
Proof. exact @ReadBufProofs.C12_read_chunking_init. Qed.

(* partial writes never duplicate, drop or reorder octets *)
Theorem C12_write_no_dup_drop :
  forall vectored max ops script st' ws os,
    1 <= max -> max <= MAX_MAX_FRAME_SIZE ->
    WriteBuf.run ops (winit vectored max) script = (st', ws, os) ->
    exists total rest,
      encode_all max (buffered_frames ops os) = EOk total /\
      pending st' = EOk rest /\
      concat ws ++ rest = total.
Proof. exact WriteBufProofs.C12_write_no_dup_drop. Qed.

Theorem C12_write_prefix :
  forall vectored max ops script st' ws os,
    1 <= max -> max <= MAX_MAX_FRAME_SIZE ->
    WriteBuf.run ops (winit vectored max) script = (st', ws, os) ->
    exists total,
      encode_all max (buffered_frames ops os) = EOk total /\
      is_prefix (concat ws) total = true.
Proof.
  intros vectored max ops script st' ws os H1 H2 Hr.
  destruct (C12_write_no_dup_drop vectored max ops script st' ws os H1 H2 Hr)
    as (total & rest & He & _ & Hcat).
  exists total. split; [exact He|]. rewrite <- Hcat. apply is_prefix_app.
Qed.

Theorem C12_write_complete :
  forall vectored max ops script st' ws os,
    1 <= max -> max <= MAX_MAX_FRAME_SIZE ->
    WriteBuf.run ops (winit vectored max) script = (st', ws, os) ->
    pending st' = EOk [] ->
    encode_all max (buffered_frames ops os) = EOk (concat ws).
Proof.
  intros vectored max ops script st' ws os H1 H2 Hr Hp.
  destruct (C12_write_no_dup_drop vectored max ops script st' ws os H1 H2 Hr)
    as (total & rest & He & Hp' & Hcat).
  rewrite Hp in Hp'. injection Hp' as <-.
  rewrite app_nil_r in Hcat. rewrite Hcat. exact He.
Qed.

Theorem C12_write_zero : forall st st1 script,
  settle st = SBusy st1 ->
  flush st (TZero :: script) = (st1, [], FWriteZero, script) /\
  flush st (TAccept 0 :: script) = (st1, [], FWriteZero, script).
Proof.
  intros st st1 script Hs. split.
  - cbn [flush]. rewrite Hs. reflexivity.
  - apply flush_accept_nothing; [exact Hs|apply N.min_0_l].
Qed.

(* no emitted frame payload exceeds the encoder's max_frame_size *)
Theorem C12_send_limit : forall max f bs,
  42 <= max -> max <= MAX_MAX_FRAME_SIZE ->
  frame_wf max f = true -> encode max f = EOk bs ->
  all_payloads_le max bs = true.
Proof.
  intros max f bs H42 Hmax Hwf He.
  apply frames_le_all_payloads_le; [exact Hmax|].
  exact (encode_framed max f bs H42 Hmax Hwf He).
Qed.

Theorem C12_send_limit_data_enforced : forall st sid fl pad data st',
  buffer st (FData sid fl pad data) = BOk st' -> lenN data <= w_max st.
Proof. exact WriteBufProofs.C12_send_limit_data_enforced. Qed.

(* a frame above the local limit is refused with FRAME_SIZE_ERROR from its Length field alone *)
Theorem C12_recv_limit : forall (HS : Type) (ops : hpack_ops HS) (st : rstate HS) l0 l1 l2 more,
  r_dead st = false -> r_ld st = LdHead -> r_buf st = [] ->
  r_max_frame st < (l0 * 256 + l1) * 256 + l2 ->
  feed ops st (l0 :: l1 :: l2 :: more) =
    (set_core st (l0 :: l1 :: l2 :: more) LdHead (r_partial st) (r_hs st) true,
     [EvError (PEGoAway [] reason_FRAME_SIZE_ERROR)]).
Proof. exact @ReadBufProofs.C12_recv_limit. Qed.

Theorem C12_recv_dead_silent : forall (HS : Type) (ops : hpack_ops HS) chunks (st : rstate HS),
  r_dead st = true -> snd (feed_all ops st chunks) = [] /\ r_dead (fst (feed_all ops st chunks)) = true.
Proof. exact @ReadBufProofs.dead_silent_all. Qed.

(* from the initial state the reader never reaches a Rust panic and the model never runs out of fuel *)
Theorem C12_reader_never_panics : forall (HS : Type) (ops : hpack_ops HS) hs0 max_frame max_hls chunks,
  Forall clean_event (snd (feed_all ops (rinit hs0 max_frame max_hls) chunks)).
Proof. exact @ReadBufProofs.reader_never_panics. Qed.

(* the model's own reader parses the model's encoder output (CONTINUATION runs included) back to [f] *)
Theorem C12_roundtrip_reader : forall smax rmax hls f,
  42 <= smax -> smax <= MAX_MAX_FRAME_SIZE -> smax <= rmax ->
  frame_wf smax f = true ->
  continuations_needed smax f <= calc_max_continuation_frames hls rmax + 1 ->
  exists bs,
    encode smax f = EOk bs /\
    map raw_event_frame (snd (feed hp_raw (rinit [] rmax hls) bs)) = [Some f].
Proof. exact ReadBufProofs.C12_roundtrip_reader. Qed.

(* (literal HPACK instance) a header block that a fragment made malformed is never delivered by a later
   CONTINUATION, wherever the block was cut *)
Theorem C12_malformed_block_never_delivered : forall mh mc p (hs : lit_state) bytes f hs'',
  lt_malformed hs = true ->
  snd (decode_frame hp_lit mh mc (Some p) hs bytes) <> DEvent (EvHeaders f hs'').
Proof. exact ReadBufProofs.malformed_block_never_delivered. Qed.
