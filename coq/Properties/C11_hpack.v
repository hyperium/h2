(* C11 (HPACK integer + header-block decoder): property statements; the proofs are in
   Proofs/HpackIntProofs.v and Proofs/HpackDecProofs.v. *)
From H2V Require Import Base.Tac Base.Bytes Gen.StaticTable.
From H2V Require Import Ref.Rfc7541Static Ref.Rfc7541Int Ref.Rfc7541Block.
From H2V Require Import Model.HttpTokens Model.HpackInt Model.HpackDec.
From H2V Require Import Proofs.HpackIntProofs Proofs.HpackDecProofs.
Local Open Scope N_scope.

(* h2's static table (get_static / Table::get constants, rendered by the translator) is RFC 7541
   Appendix A *)
Theorem C11_gen_static_is_rfc :
  map snd static_get = rfc_static /\
  map fst static_get = map N.of_nat (seq 1 61) /\
  get_static_last = rfc_static_len /\
  get_dyn_base = rfc_static_len + 1 /\
  dyn_offset = rfc_static_len + 1.
Proof. exact gen_static_is_rfc. Qed.

(* index_static (encoder) is consistent with get_static (decoder) *)
Theorem C11_static_index_inverse :
  forallb static_index_entry_ok static_index = true /\
  forallb static_get_entry_covered static_get = true.
Proof. exact static_index_inverse. Qed.

(* the executable reference decoder decides the declarative RFC relation *)
Theorem C11_ref_decode_block_spec :
  forall hd L rs bs fs rs',
  ref_decode_block hd L rs bs = Some (fs, rs') <-> block_decodes hd L rs bs fs rs'.
Proof. exact ref_decode_block_spec. Qed.

(* decode_int: exactly the RFC 7541 5.1 representations of at most 1 + 4 octets *)
Theorem C11_decode_int_spec :
  forall p bs v rest, 1 <= p <= 8 -> octets bs ->
  (decode_int p bs = ROk v rest <->
   exists b t enc, bs = b :: t /\ bs = enc ++ rest /\ int_repr_L h2_int_limit p (b / 2 ^ p) v enc).
Proof. exact decode_int_spec. Qed.

Theorem C11_decode_int_need_more :
  forall p bs, 1 <= p <= 8 -> octets bs ->
  (decode_int p bs = RErr (NeedMore IntegerUnderflow) <->
   bs = [] \/
   exists b t, bs = b :: t /\ b mod 2 ^ p = 2 ^ p - 1 /\ (length t < h2_int_limit)%nat /\
               Forall (fun c => 128 <= c) t).
Proof. exact decode_int_need_more. Qed.

Theorem C11_decode_int_truncated :
  forall p hi v enc n, 1 <= p <= 8 -> octets enc ->
  int_repr_L h2_int_limit p hi v enc -> (n < length enc)%nat ->
  decode_int p (firstn n enc) = RErr (NeedMore IntegerUnderflow).
Proof. exact decode_int_truncated. Qed.

(* IntegerOverflow: exactly when the all-ones prefix is followed by 4 octets with bit 7 set
   (a fifth continuation octet is announced), whatever comes after *)
Theorem C11_decode_int_overflow :
  forall p bs, 1 <= p <= 8 -> octets bs ->
  (decode_int p bs = RErr IntegerOverflow <->
   exists b t, bs = b :: t /\ b mod 2 ^ p = 2 ^ p - 1 /\ (h2_int_limit <= length t)%nat /\
               Forall (fun c => 128 <= c) (firstn h2_int_limit t)).
Proof. exact decode_int_overflow. Qed.

Theorem C11_decode_int_bound :
  forall p bs v rest, 1 <= p <= 8 -> octets bs ->
  decode_int p bs = ROk v rest -> v < 2 ^ 28 + 255.
Proof. exact decode_int_bound. Qed.

Theorem C11_decode_int_encode_int :
  forall p hi v rest, 1 <= p <= 8 -> hi < 2 ^ (8 - p) ->
  v < 2 ^ p - 1 + 2 ^ 28 -> octets rest ->
  decode_int p (encode_int p hi v ++ rest) = ROk v rest.
Proof. exact decode_int_encode_int. Qed.

(* the decode loop always terminates within its fuel *)
Theorem C11_decode_no_fuel :
  forall hd d bs, r_verdict (decode hd d bs) <> VFuel.
Proof.
  intros hd d bs.
  rewrite decode_is_run. apply (run_ind hd (fun _ _ _ R => r_verdict R <> VFuel)).
  - discriminate.
  - intros cr' d' ty t. destruct (decode_step hd cr' d' ty (ty :: t)); auto; discriminate.
Qed.

(* whatever is accepted is what RFC 7541 assigns to the block *)
Theorem C11_hpack_decode_sound :
  forall hd d bs,
  wf d -> octets bs ->
  r_verdict (decode hd d bs) = VOk ->
  block_decodes hd h2_int_limit (abs (take_queued d)) bs
                (r_fields (decode hd d bs)) (abs (r_dec (decode hd d bs))).
Proof. exact hpack_decode_sound. Qed.

(* ... including the 4.2 clause, except for known finding KF-C11-3 *)
Theorem C11_hpack_decode_sound_rfc_except_known :
  forall hd d bs,
  wf d -> octets bs ->
  ~ required_update_pending d ->
  r_verdict (decode hd d bs) = VOk ->
  rfc_block_decodes hd h2_int_limit (abs (take_queued d)) bs
                    (r_fields (decode hd d bs)) (abs (r_dec (decode hd d bs))).
Proof. exact hpack_decode_sound_rfc_except_known. Qed.

(* whatever the RFC accepts (within h2's integer limit) with headers that pass the http-crate
   validation is accepted, with the same headers and table *)
Theorem C11_hpack_decode_complete_modulo_validation :
  forall hd d bs fs rs',
  wf d -> octets bs ->
  block_decodes hd h2_int_limit (abs (take_queued d)) bs fs rs' ->
  forallb field_valid fs = true ->
  r_verdict (decode hd d bs) = VOk /\
  r_fields (decode hd d bs) = fs /\
  abs (r_dec (decode hd d bs)) = rs'.
Proof. exact hpack_decode_complete_modulo_validation. Qed.

(* dynamic table invariants over every history *)
Theorem C11_hpack_table_bounded :
  forall hd size evs,
  let d := run_events hd (decoder_new size) evs in
  t_size (d_table d) = table_size (t_entries (d_table d)) /\
  t_size (d_table d) <= t_max (d_table d) /\
  t_max (d_table d) <= max_limit size evs.
Proof. intros hd size evs. destruct (run_events_inv hd evs _ size (hist_inv_new size)) as ((_ & Hs & Hle) & Hm & _). auto. Qed.

(* the hypothesis [wf] of the theorems above holds in every reachable decoder state *)
Theorem C11_reachable_wf :
  forall hd size evs, wf (run_events hd (decoder_new size) evs).
Proof. intros hd size evs. apply (run_events_inv hd evs _ size (hist_inv_new size)). Qed.

(* within the limit in force, except for known finding KF-C11-3 *)
Theorem C11_hpack_table_within_limit_except_known :
  forall hd d frags,
  wf d -> ~ required_update_pending d ->
  let d' := r_dec (decode_chunks hd d frags) in
  t_size (d_table d') <= t_max (d_table d') /\ t_max (d_table d') <= d_last_max d'.
Proof. exact hpack_table_within_limit_except_known. Qed.

(* fragments: same result as the whole block, except for known finding KF-C11-1 *)
Theorem C11_hpack_chunking_except_known :
  forall hd d frags,
  frags <> [] ->
  ~ size_update_after_field hd d (concat frags) ->
  same_result (decode_chunks hd d frags) (decode hd d (concat frags)).
Proof. exact hpack_chunking_except_known. Qed.

Theorem C11_hpack_chunking_by_verdict :
  forall hd d frags,
  frags <> [] ->
  r_verdict (decode hd d (concat frags)) <> VErr InvalidMaxDynamicSize ->
  same_result (decode_chunks hd d frags) (decode hd d (concat frags)).
Proof. exact hpack_chunking_by_verdict. Qed.

(* the exceptions are necessary: the unconditional statements are false *)
Theorem C11_known_1_refuted :
  ~ (forall (hd : list N -> option (list N)) d frags, frags <> [] ->
       same_result (decode_chunks hd d frags) (decode hd d (concat frags))).
Proof. exact known_1_refuted. Qed.

Theorem C11_known_3_refuted :
  ~ (forall (hd : list N -> option (list N)) size evs,
       let d := run_events hd (decoder_new size) evs in
       t_size (d_table d) <= d_last_max d) /\
  ~ (forall (hd : list N -> option (list N)) d bs, wf d -> octets bs ->
       r_verdict (decode hd d bs) = VOk ->
       rfc_block_decodes hd h2_int_limit (abs (take_queued d)) bs
                         (r_fields (decode hd d bs)) (abs (r_dec (decode hd d bs)))).
Proof. exact known_3_refuted. Qed.
