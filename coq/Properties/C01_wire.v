(* Property C01, wire round trip for the CONCRETE codec: statements; the proofs are in
   Proofs/WireCodecProofs.v (on Proofs/FrameSeqProofs.v = C12 for sequences and Proofs/HpackSyncProofs.v =
   C10 with C11), closed under the global context.
   [h2_wcodec p] (Model/WireCodec.v): sending side = HPACK encoder model + frame encoder model (HEADERS /
   PUSH_PROMISE split into CONTINUATION, DATA, RST_STREAM); receiving side = one FramedRead::poll_next of
   the reader model + HPACK decoder model (Huffman decoder model inside).
   [codec_sync_on P proj c R] is DataPath's [codec_sync] relative to the side conditions P and to what the
   wire preserves (proj = [norm_wire]: the head/interim/trailers tag of a HEADERS frame is not on the wire).
   Side conditions [sframe_ok p es (sid, f)], exactly:
     stream id below 2^31 and not 0;  DATA: payload of octets, at most the sender's max_frame_size;
     RST_STREAM: 32-bit code;  PUSH_PROMISE: promised id below 2^31;
     HEADERS / PUSH_PROMISE: names and values octet strings shorter than 2^24 (C10), fields accepted by the
     validation of h2's decoder (C11), and the block the encoder produces needs no more CONTINUATION frames
     than the receiver's flood limit (C12, [block_fits]). *)
From H2V Require Import Base.Tac Base.Bytes Gen.FrameConsts.
From H2V Require Import Model.FrameCodec Model.ReadBuf Model.HpackEnc Model.HpackDec.
From H2V Require Import Proofs.HpackSyncProofs Proofs.FrameSeqProofs.
From H2V Require Import Model.StreamState Model.DataPath Model.WireCodec Proofs.DataPathProofs Proofs.WireCodecProofs.
Local Open Scope N_scope.

(* the relative interface generalises DataPath's: codec_sync is the instance P = True, proj = identity *)
Theorem C01_wire_interface_generalised : forall (F ES DS : Type) (c : wcodec F ES DS) (R : ES -> DS -> Prop),
  codec_sync c R <-> codec_sync_on (fun _ _ => True) (fun f => f) c R.
Proof.
  intros F ES DS c R.
  unfold codec_sync, codec_sync_on. split; intros [A B]; (split; [exact A|]).
  - intros es ds f bs es' HR _ HE. exact (B es ds f bs es' HR HE).
  - intros es ds f bs es' HR HE. exact (B es ds f bs es' HR I HE).
Qed.

Theorem C01_wire_prefix_on :
  forall (F ES DS : Type) (P : ES -> F -> Prop) (proj : F -> F) (c : wcodec F ES DS) (R : ES -> DS -> Prop),
  codec_sync_on P proj c R ->
  forall fs es ds w tail fuel,
  R es ds -> all_ok P c es fs -> w ++ tail = enc_all c es fs -> (length fs < fuel)%nat ->
  exists fs1 fs2, fs = fs1 ++ fs2 /\ dec_all c fuel ds w = map proj fs1.
Proof. exact @wire_prefix_on. Qed.

(* THE INSTANCE: decode after encode is the frame (modulo the tag) whatever octets follow, a strict prefix
   of an encoding is "need more", no frame from no octets, and the HPACK contexts stay synchronised *)
Theorem C01_wire_h2_sync : forall p,
  wparams_ok p -> codec_sync_on (sframe_ok p) norm_wire (h2_wcodec p) hsync.
Proof. exact h2_sync. Qed.

(* C01_wire_roundtrip for the concrete codec *)
Theorem C01_wire_roundtrip_h2 : forall p,
  wparams_ok p ->
  forall chain ls st os es ds w tail sid,
  run (init_state chain) ls = ROk st os ->
  hsync es ds ->
  all_ok (sframe_ok p) (h2_wcodec p) es (wire_frames os) ->
  w ++ tail = enc_all (h2_wcodec p) es (wire_frames os) ->
  let rx := dec_all (h2_wcodec p) (S (length (wire_frames os))) ds w in
  (exists later, rx ++ later = map norm_wire (wire_frames os)) /\
  (exists more, payloads (frames_of sid rx) ++ more = payloads (submitted sid ls)) /\
  (no_drop sid os -> exists more, flat (frames_of sid rx) ++ more = map norm_atom (flat (submitted sid ls))).
Proof. exact wire_roundtrip_h2. Qed.

(* ... from the start of a connection (Encoder::new / Decoder::new) *)
Theorem C01_wire_roundtrip_h2_init : forall p m0,
  wparams_ok p ->
  forall chain ls st os w tail sid,
  run (init_state chain) ls = ROk st os ->
  all_ok (sframe_ok p) (h2_wcodec p) (enc_new m0) (wire_frames os) ->
  w ++ tail = enc_all (h2_wcodec p) (enc_new m0) (wire_frames os) ->
  let rx := dec_all (h2_wcodec p) (S (length (wire_frames os))) (decoder_new (N.min m0 4096)) w in
  (exists later, rx ++ later = map norm_wire (wire_frames os)) /\
  (exists more, payloads (frames_of sid rx) ++ more = payloads (submitted sid ls)) /\
  (no_drop sid os -> exists more, flat (frames_of sid rx) ++ more = map norm_atom (flat (submitted sid ls))).
Proof.
  intros p m0 Hp chain ls st os w tail sid RUN OK E. exact (wire_roundtrip_h2 p Hp chain ls st os _ _ w tail sid RUN (hsync_init m0) OK E).
Qed.

(* the sender's octet stream of the theorems above IS what the frame writer of C12 serialises: enc_all of
   the concrete codec = WriteBuf's encode_all of the frame values handed to Codec::buffer ([h2_frames]),
   all of them well-formed and within the receiver's CONTINUATION limit -- so C12_write_no_dup_drop /
   C12_write_prefix (every partial-write pattern leaves a prefix of it on the transport) and
   C12_seq_reader_prefix (every chunking of a prefix of it through the reader loop) apply to it *)
Theorem C01_wire_octets_are_writer_input : forall p,
  wparams_ok p ->
  forall fs es ds, hsync es ds -> all_ok (sframe_ok p) (h2_wcodec p) es fs ->
  WriteBuf.encode_all (wp_smax p) (h2_frames p es fs) = FrameCodec.EOk (enc_all (h2_wcodec p) es fs) /\
  frames_wf (wp_smax p) (h2_frames p es fs) = true /\
  Forall (cont_ok (wp_smax p) (wp_rmax p) (wp_hls p)) (h2_frames p es fs).
Proof. exact enc_all_is_encode_all. Qed.

(* the side conditions are decidable: an executable check implies them *)
Theorem C01_wire_side_conditions_decidable : forall p fs es,
  all_okb p es fs = true -> all_ok (sframe_ok p) (h2_wcodec p) es fs.
Proof. exact all_okb_ok. Qed.

(* non-vacuity: two interleaved streams, a body cut by a 1-octet window and reclaimed from the codec,
   trailers; all hypotheses hold, and the concrete decoder returns the frames from all octets, all but the
   trailers from all but the last three octets *)
Theorem C01_wire_roundtrip_h2_nonvacuous :
  wparams_ok ex_p /\
  exists st os,
    run (init_state 256) ex_labels = ROk st os /\
    wire_frames os = [(1, ex_head); (3, ex_head); (1, FData [10] false); (3, FData [20;21;22] false);
                      (1, FData [11;12;13;14] true); (3, ex_trailers)] /\
    all_ok (sframe_ok ex_p) (h2_wcodec ex_p) (enc_new 4096) (wire_frames os) /\
    let total := enc_all (h2_wcodec ex_p) (enc_new 4096) (wire_frames os) in
    dec_all (h2_wcodec ex_p) (S (length (wire_frames os))) (decoder_new 4096) total
      = map norm_wire (wire_frames os) /\
    dec_all (h2_wcodec ex_p) (S (length (wire_frames os))) (decoder_new 4096) (firstn (length total - 3) total)
      = map norm_wire (removelast (wire_frames os)) /\
    length total = 81%nat.
Proof. exact wire_roundtrip_h2_nonvacuous. Qed.
