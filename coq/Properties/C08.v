(* C08 - no peer input can panic an endpoint: the inventory side.
   The no-panic theorems themselves are those of the area models (C02_flow_code_never_panics, C03_no_panic,
   C05_counts_invariant, C10_never_panics, C11_decode_no_fuel, C12_*_never_panics, C14_no_assert, C15_no_assert):
   ./check C08 audits each of them in its own Properties file. *)
From Coq Require Import String List NArith Bool.
From H2V Require Import Gen.PanicSites Model.PanicCover Proofs.PanicCoverProofs.
Import ListNotations.

(* every panic!/unreachable!/assert!/unwrap/expect site of the receive-path files, as regenerated from /repo's
   current source, has a coverage class *)
Theorem C08_sites_classified : forallb is_classified panic_sites = true.
Proof. vm_compute. reflexivity. Qed.

(* no entry of the hand-written table is stale *)
Theorem C08_table_live : forallb entry_live manual = true.
Proof. exact table_live. Qed.

(* every theorem the table cites is audited by the check *)
Theorem C08_cited_are_audited : forallb (fun n => existsb (String.eqb n) audited) (cited manual) = true.
Proof. vm_compute. reflexivity. Qed.

(* the inventory is not empty and the classes are all in use (non-vacuity) *)
Theorem C08_inventory_nonvacuous :
  (0 < count (fun c => match c with ByTheorem _ => true | _ => false end))%N /\
  (0 < count (fun c => match c with Residual _ => true | _ => false end))%N /\
  (100 < N.of_nat (length panic_sites))%N.
Proof. vm_compute. repeat split. Qed.
