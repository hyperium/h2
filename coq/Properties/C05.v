(* C05 — concurrent-stream limits are honoured in both directions and slots are recycled.
   Statements (proofs: Proofs/CountsProofs.v; model: Model/Counts.v, tied to
   /repo/src/proto/streams/counts.rs by the lock-step correspondence). *)
From H2V Require Import Base.Tac Model.Counts Proofs.CountsProofs.
Local Open Scope Z_scope.

(* Every state reachable by ANY sequence of calls into counts.rs that respects the callers'
   query-then-increment discipline (which the correspondence checks on the real code) satisfies the
   invariant: counters equal the number of counted records per direction, no record is counted twice,
   the receive count is within the advertised limit; and no assert! of counts.rs fires. *)
Theorem C05_counts_invariant :
  forall ls st, CInv st ->
  match crun st ls with
  | inl (Some (st', _)) => CInv st'
  | inl None => True
  | inr (_, CPanic _) => False
  | inr (_, _) => True
  end.
Proof. exact crun_inv. Qed.

Theorem C05_initial_state_ok :
  forall ms mr mlr mrr mle, limit_ok mr -> CInv (cinit ms mr mlr mrr mle).
Proof. exact cinit_inv. Qed.

Theorem C05_send_admission :
  forall st key st' outs,
  CInv st -> cstep st (IncSend key) = COk st' outs ->
  below (num_send st) (max_send st) = true /\ num_send st' = num_send st + 1 /\
  match max_send st' with None => True | Some m => num_send st' <= m end.
Proof. exact C05_send_admission. Qed.

Theorem C05_recv_limit :
  forall st, CInv st -> match max_recv st with None => True | Some m => num_recv st <= m end.
Proof. intros st H. apply H. Qed.

Theorem C05_slot_recycled :
  forall st key o st' outs,
  CInv st -> cstep st (TransitionAfter key o) = COk st' outs ->
  t_closed o = true -> t_sched_reset o = false ->
  cmem key (counted st') = false /\
  (cmem key (counted st) = true ->
     if t_local o then num_send st' = num_send st - 1 /\ num_recv st' = num_recv st
     else num_recv st' = num_recv st - 1 /\ num_send st' = num_send st) /\
  (cmem key (counted st) = false -> num_send st' = num_send st /\ num_recv st' = num_recv st).
Proof. exact C05_slot_recycled. Qed.

Theorem C05_nonvacuous :
  match crun (cinit (Some 1) (Some 5) 10 20 None) demo_clabels with
  | inl (Some (st, outs)) => num_send st = 1 /\ outs = [[CBool true]; []; [CBool false]; []; [CBool true]; []]
  | _ => False
  end.
Proof. exact demo_counts. Qed.

(* the slot of a locally reset stream is given back exactly when its record has left the reset-expiration
   queue, flushed or not (the behaviour repaired in /repo: before, a record that expired while its RST_STREAM
   was still queued leaked its slot for the rest of the connection) *)
Theorem C05_reset_slot_returned :
  forall st key o st' outs,
  cstep st (TransitionAfter key o) = COk st' outs ->
  num_lreset st' = if negb (t_pending_reset o) && t_reset_counted o then num_lreset st - 1 else num_lreset st.
Proof. exact reset_slot_returned. Qed.

Theorem C05_reset_slot_fix_needed :
  exists st key o, cstep_prefix st key o = COk st [] /\ t_pending_reset o = false /\ t_reset_counted o = true /\
                   num_lreset st = 1 /\
                   match cstep st (TransitionAfter key o) with COk st' _ => num_lreset st' = 0 | _ => False end.
Proof. exact reset_slot_fix_needed. Qed.
