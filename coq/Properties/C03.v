(* C03 — receive-side flow control: the advertised windows never exceed the configuration, every
   flow-controlled byte received is credited back exactly once, and a window whose data has all been
   released returns to its configured size.
   Statements; the proofs are in Proofs/RecvFlow*.v.  Model: Model/RecvFlow.v (tied to
   /repo/src/proto/streams/{recv,flow_control,streams}.rs by the lock-step correspondence
   lib/props/parts/recvflow.py). *)
From H2V Require Import Base.Tac Model.RecvFlow Proofs.RecvFlowLists Proofs.RecvFlowInv Proofs.RecvFlowEff Proofs.RecvFlowRun.
Local Open Scope Z_scope.

(* One label from any state satisfying the invariant RInvD d (d = bytes a step charged to the
   connection before reporting a connection error): the invariant is kept with the same d unless the
   step reports a connection error (then d may grow), and the step does not panic: not the u32
   underflow of in_flight_data -= capacity, not checked_size's assert, not the
   expect("unexpected flow control state") of either WINDOW_UPDATE emission, not the debug_asserts. *)
Theorem C03_step_invariant :
  forall (d : Z) (st : rstate) (l : rlabel),
  0 <= d -> RInvD d st -> rlabel_ok l ->
  match rstep st l with
  | ROk st' outs => (exists d', d <= d' /\ RInvD d' st') /\ (rhas_conn_err outs = false -> RInvD d st')
  | RStuck _ => True
  | RPanic _ => False
  end.
Proof.
  intros d st l _ HI Hl. pose proof (rstep_spec d st l HI Hl) as X.
  destruct (rstep st l); [apply X|exact I|exact X].
Qed.

(* For every label sequence (every history of DATA on live, reset, unknown streams, with and without
   padding, releases, dropped handles, target and SETTINGS changes, WINDOW_UPDATE emissions) on which
   no connection error was reported:
   R1 connection: available + in flight = configured target (<= 2^31-1);
   R2 every in-flight byte of the connection belongs to exactly one record;
   R3 every record: window <= available, available + in flight <= configured size, with equality
      while the application holds the receive handle; configured size <= 2^31-1 and, for a record
      still linked in the store, <= SETTINGS_INITIAL_WINDOW_SIZE. *)
Theorem C03_conservation :
  forall (ls : list rlabel) (st : rstate) (outs : list (list rout)),
  Forall rlabel_ok ls -> rrun rinit_state ls = inl (Some (st, outs)) -> rno_conn_err outs = true ->
  k_avail st + k_infl st = k_target st /\ 0 <= k_target st <= RMAXW /\
  k_infl st = sum_infl (k_strs st) /\
  NoDup (map r_id (k_strs st)) /\
  forall s, In s (k_strs st) ->
    0 <= r_infl s /\ r_win s <= r_avail s /\ r_avail s + r_infl s <= r_base s /\
    (r_isrecv s = true -> r_done s = false -> r_unl s = false -> r_avail s + r_infl s = r_base s) /\
    r_base s <= RMAXW /\ (r_unl s = false -> r_base s <= k_init st).
Proof.
  intros ls st outs Hls Hrun Hno. destruct (reach_inv ls st outs Hls Hrun) as (_ & HI).
  pose proof (inv_conserved 0 st (HI Hno)) as X. rewrite Z.add_0_r in X. exact X.
Qed.

(* the same after connection errors, except that the bytes of the failing frames (d) stay charged *)
Theorem C03_conservation_after_error :
  forall (ls : list rlabel) (st : rstate) (outs : list (list rout)),
  Forall rlabel_ok ls -> rrun rinit_state ls = inl (Some (st, outs)) ->
  k_avail st + k_infl st = k_target st /\ 0 <= k_target st <= RMAXW /\
  (exists d, 0 <= d /\ k_infl st = sum_infl (k_strs st) + d) /\
  NoDup (map r_id (k_strs st)) /\
  forall s, In s (k_strs st) ->
    0 <= r_infl s /\ r_win s <= r_avail s /\ r_avail s + r_infl s <= r_base s /\
    (r_isrecv s = true -> r_done s = false -> r_unl s = false -> r_avail s + r_infl s = r_base s) /\
    r_base s <= RMAXW /\ (r_unl s = false -> r_base s <= k_init st).
Proof.
  intros ls st outs Hls Hrun. destruct (reach_inv ls st outs Hls Hrun) as ((d & HI) & _).
  destruct (inv_conserved d st HI) as (A & B & C & D).
  split; [exact A|]. split; [exact B|]. split; [exists d; split; [apply HI|exact C]|exact D].
Qed.

(* no reachable label trips an assert / expect / unsigned underflow of the receive-flow code *)
Theorem C03_no_panic :
  forall (ls : list rlabel) (k n : N),
  Forall rlabel_ok ls -> rrun rinit_state ls <> inr (k, RPanic n).
Proof. exact C03_no_panic. Qed.

(* From every reachable state, for every label:
   - a WINDOW_UPDATE is emitted only as the single output of RConnWU (stream 0) or of
     RStreamWUPop key true, its increment is positive, and right after it the advertised window
     equals available <= configured size <= 2^31-1 (for a linked stream <= the initial window size);
   - the connection window rises at no other label;
   - a stream window rises at no label other than its own emission and a
     SETTINGS_INITIAL_WINDOW_SIZE increase. *)
Theorem C03_never_over_advertised :
  forall (ls : list rlabel) (st : rstate) (outs : list (list rout)) (l : rlabel) (st' : rstate) (o : list rout),
  Forall rlabel_ok ls -> rrun rinit_state ls = inl (Some (st, outs)) ->
  rlabel_ok l -> rstep st l = ROk st' o ->
  (forall key incr, In (RWU key incr) o ->
     (l = RConnWU /\ key = 0%N /\
      o = [RWU 0 incr] /\ 0 < incr /\ k_win st' = k_win st + incr /\
      k_win st' = k_avail st' /\ k_avail st' <= k_target st' /\ k_target st' <= RMAXW) \/
     (l = RStreamWUPop key true /\
      o = [RWU key incr] /\ 0 < incr /\
      exists s s', rfind key (k_strs st) = Some s /\ rfind key (k_strs st') = Some s' /\
        r_win s' = r_win s + incr /\ r_win s' = r_avail s' /\ r_avail s' <= r_base s' /\
        r_base s' <= RMAXW /\ (r_unl s' = false -> r_base s' <= k_init st'))) /\
  (l <> RConnWU -> k_win st' <= k_win st) /\
  (forall key s s', rfind key (k_strs st) = Some s -> rfind key (k_strs st') = Some s' ->
     ~ match l with
       | RStreamWUPop k true => k = key
       | RApplySettings new_init _ => k_init st < new_init
       | _ => False
       end -> r_win s' <= r_win s).
Proof.
  intros ls st outs l st' o Hls Hrun Hl E. destruct (reach_inv ls st outs Hls Hrun) as ((d & HI) & _).
  exact (never_over_advertised d st l st' o HI Hl E).
Qed.

(* in every reachable state every stream window is within its configured size *)
Theorem C03_window_bounds :
  forall (ls : list rlabel) (st : rstate) (outs : list (list rout)),
  Forall rlabel_ok ls -> rrun rinit_state ls = inl (Some (st, outs)) ->
  forall s, In s (k_strs st) ->
    r_win s <= r_avail s /\ r_avail s <= r_base s /\ r_base s <= RMAXW /\
    (r_unl s = false -> r_base s <= k_init st /\ k_init st <= RMAXW).
Proof.
  intros ls st outs Hls Hrun s. destruct (reach_inv ls st outs Hls Hrun) as ((d & HI) & _).
  exact (window_bounds d st s HI).
Qed.

(* on every run without connection error the connection window the model holds is what the peer
   computes from the wire: 65535 + sum of WINDOW_UPDATE(stream 0) increments - sum of the
   flow-controlled sizes of all DATA frames (known, reset, unknown streams alike) *)
Theorem C03_conn_ledger :
  forall (ls : list rlabel) (st : rstate) (outs : list (list rout)),
  Forall rlabel_ok ls -> rrun rinit_state ls = inl (Some (st, outs)) -> rno_conn_err outs = true ->
  k_win st = RDEFAULT + conn_ledger ls outs.
Proof.
  intros ls st outs Hls Hrun Hno. pose proof (rrun_safe ls _ 0 rinit_inv Hls) as X. rewrite Hrun in X. apply X, Hno.
Qed.

(* In every reachable state: with nothing in flight the connection has its whole target available,
   and a stream whose application holds the handle and has released everything has its whole
   configured size available; the advertised window then either is settled (nothing, or less than
   half a window, is withheld: h2 batches WINDOW_UPDATEs) or the WINDOW_UPDATE is due (connection) /
   the stream is queued for one (is_pending_window_update), and that emission carries exactly the
   missing amount and makes window = available = configured size. *)
Theorem C03_restores :
  forall (ls : list rlabel) (st : rstate) (outs : list (list rout)),
  Forall rlabel_ok ls -> rrun rinit_state ls = inl (Some (st, outs)) ->
  (k_infl st = 0 ->
     k_avail st = k_target st /\
     ((unclaimed (k_win st) (k_avail st) = None /\
       (k_target st <= k_win st \/ (k_win st < k_target st /\ k_target st - k_win st < Z.quot (k_win st) 2))) \/
      exists st', rstep st RConnWU = ROk st' [RWU 0 (k_target st - k_win st)] /\
                  k_win st' = k_target st /\ k_avail st' = k_target st)) /\
  (forall s, In s (k_strs st) ->
     r_isrecv s = true -> r_done s = false -> r_unl s = false -> r_infl s = 0 ->
     r_avail s = r_base s /\
     ((unclaimed (r_win s) (r_avail s) = None /\ r_win s <= r_base s /\
       (r_base s <= r_win s \/ (r_win s < r_base s /\ r_base s - r_win s < Z.quot (r_win s) 2))) \/
      (r_pend s = true /\
       exists st' s', rstep st (RStreamWUPop (r_id s) true) = ROk st' [RWU (r_id s) (r_base s - r_win s)] /\
                      rfind (r_id s) (k_strs st') = Some s' /\
                      r_win s' = r_base s /\ r_avail s' = r_base s /\ r_base s' = r_base s))).
Proof.
  intros ls st outs Hls Hrun. destruct (reach_inv ls st outs Hls Hrun) as ((d & HI) & _).
  exact (restores_inv d st HI).
Qed.

(* one-step form: popping a queued record that is owed capacity emits exactly available - window *)
Theorem C03_stream_window_update_emits :
  forall (d : Z) (st : rstate) (s : rstream),
  RInvD d st -> In s (k_strs st) -> unclaimed (r_win s) (r_avail s) <> None ->
  exists st' s',
    rstep st (RStreamWUPop (r_id s) true) = ROk st' [RWU (r_id s) (r_avail s - r_win s)] /\
    rfind (r_id s) (k_strs st') = Some s' /\
    r_win s' = r_avail s /\ r_avail s' = r_avail s /\ r_base s' = r_base s /\ r_infl s' = r_infl s /\
    r_pend s' = false.
Proof. exact pop_emits. Qed.

(* the repaired defect (corpus/conn/f1_window_stall.json): if apply_local_settings did not queue a
   stream on a decrease of the initial window size (rstep_nofix = rstep except for that), a run
   reaches a record whose application holds the handle and has released everything, that is owed its
   whole configured size, has a negative window, and is not queued: the credit is never sent *)
Theorem C03_fix_needed :
  exists ls st s, Forall rlabel_ok ls /\ rrun_nofix rinit_state ls = Some st /\ In s (k_strs st) /\
    r_isrecv s = true /\ r_done s = false /\ r_unl s = false /\ r_infl s = 0 /\
    unclaimed (r_win s) (r_avail s) = Some (r_base s - r_win s) /\ r_win s < 0 /\ r_pend s = false /\
    ~ rQ s.
Proof. exact C03_fix_needed. Qed.

Theorem C03_nofix_differs_only_on_decrease :
  forall st l, (forall n t, l = RApplySettings n t -> k_init st <= n) -> rstep_nofix st l = rstep st l.
Proof.
  intros st l H. destruct l; try reflexivity. cbn [rstep_nofix rstep].
  rewrite settings_streams_nofix_same; [reflexivity|]. specialize (H _ _ eq_refl). lia.
Qed.

(* the hypotheses are satisfiable and the conclusions are not vacuous: a concrete history with
   padding, releases, both kinds of WINDOW_UPDATE, DATA on an unknown stream, a SETTINGS decrease and
   increase, a target change, a stream error, a dropped handle and a closed stream *)
Theorem C03_nonvacuous_labels : Forall rlabel_ok rdemo_labels.
Proof. exact rdemo_labels_ok. Qed.

Theorem C03_nonvacuous_run :
  match rrun rinit_state rdemo_labels with
  | inl (Some (st, outs)) =>
      rno_conn_err outs = true /\
      concat outs = [RWU 1 30000; RWU 0 30000; RWU 0 34965; RStreamErr 2] /\
      k_win st = RDEFAULT + conn_ledger rdemo_labels outs /\
      k_infl st = 0 /\ k_avail st = 100000
  | _ => False
  end.
Proof. exact rdemo_runs. Qed.

(* a reachable record satisfying the hypotheses of C03_restores that is queued for its WINDOW_UPDATE *)
Theorem C03_nonvacuous_restores :
  match rrun rinit_state rdemo_prefix with
  | inl (Some (st, outs)) =>
      exists s, In s (k_strs st) /\ r_id s = 1%N /\ r_isrecv s = true /\ r_done s = false /\
                r_unl s = false /\ r_infl s = 0 /\ r_pend s = true /\
                unclaimed (r_win s) (r_avail s) = Some 30000
  | _ => False
  end.
Proof. exact rdemo_restores_queued. Qed.

(* with the repair, the history of C03_fix_needed queues the stream and its WINDOW_UPDATE restores
   the window to the new configured size *)
Theorem C03_fix_repairs :
  match rrun rinit_state (f1_labels ++ [RStreamWUPop 1 true]) with
  | inl (Some (st, outs)) =>
      rno_conn_err outs = true /\ concat outs = [RWU 1 20000] /\
      rfind 1%N (k_strs st) = Some (mkR 1 10000 10000 0 false true 10000 false false)
  | _ => False
  end.
Proof. exact f1_fixed. Qed.
