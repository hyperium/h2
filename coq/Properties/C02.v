(* C02 — never sends more DATA than the peer's stream and connection windows allow.
   Statements; the proofs are in Proofs/SendFlow*.v.  Model: Model/SendFlow.v (tied to
   /repo/src/proto/streams/{prioritize,send,stream,flow_control}.rs by the lock-step correspondence);
   reference: Ref/Accountant.v (RFC 9113 6.9 on wire events). *)
From H2V Require Import Base.Tac Model.SendFlow Ref.Accountant Proofs.SendFlowInv Proofs.SendFlowLedger Proofs.SendFlowRun.
Local Open Scope Z_scope.

(* For every configuration, every label sequence (every history of user sends, reservations,
   resets, WINDOW_UPDATEs, SETTINGS_INITIAL_WINDOW_SIZE changes up and down, every order in which
   freed capacity is handed to waiting streams, every stream-state history) on which no connection
   error was reported: the wire events of the run are accepted by the RFC accountant, i.e. every
   non-empty DATA frame fits in the remaining stream credit and in the remaining connection credit,
   with windows allowed to go negative through SETTINGS. *)
Theorem C02_never_exceeds_credit :
  forall (mb init : Z) (ls : list label) (st : fstate) (outs : list (list out)),
  0 <= mb -> 0 <= init <= MAXW -> Forall label_ok ls ->
  run (init_state mb init) ls = inl (Some (st, outs)) -> no_conn_err outs = true ->
  exists a, acct_run (acct0 init) (all_wevs ls outs) = Some a.
Proof. exact C02_never_exceeds_credit. Qed.

(* one-step form, usable from any reachable state (also after a connection error, with debt d) *)
Theorem C02_step_simulation :
  forall d st a l st' outs,
  0 <= d -> InvD d st -> R st a -> label_ok l ->
  step st l = Ok st' outs -> has_conn_err outs = false ->
  exists a', acct_run a (wevs l outs) = Some a' /\ R st' a'.
Proof. exact step_sim. Qed.

(* no reachable label trips an assert!/debug_assert!/unsigned underflow of the flow-control code *)
Theorem C02_flow_code_never_panics :
  forall (mb init : Z) (ls : list label) (k n : N),
  0 <= mb -> 0 <= init <= MAXW -> Forall label_ok ls ->
  run (init_state mb init) ls <> inr (k, Panic n).
Proof.
  intros mb init ls k n Hm Hi Hls E. pose proof (run_safe ls _ 0 ltac:(lia) (init_inv mb init Hm Hi) Hls) as X. rewrite E in X. exact X.
Qed.

(* the hypotheses are satisfiable and the conclusion is not vacuous *)
Theorem C02_nonvacuous :
  Forall label_ok demo_labels /\
  match run (init_state 409600 100) demo_labels with
  | inl (Some (st, outs)) =>
      no_conn_err outs = true /\ concat outs <> [] /\
      acct_run (acct0 100) (all_wevs demo_labels outs) <> None
  | _ => False
  end.
Proof. split; [exact demo_labels_ok | exact demo_runs]. Qed.
