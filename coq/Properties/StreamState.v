(* The per-stream state machine /repo/src/proto/streams/state.rs: what C04, C09, C17 and C07 need
   from it.  Statements; the proofs are in Proofs/StreamStateProofs.v.
   Model: Model/StreamState.v (tied to state.rs by the exhaustive correspondence of
   harness/src/bin/streamstate.rs: every reachable state x every method x representative payloads);
   reference: Ref/Rfc9113Stream.v (RFC 9113 5.1, figure 2 and the per-state rules). *)
From H2V Require Import Base.Tac Base.Bytes Model.StreamState Ref.Rfc9113Stream Proofs.StreamStateProofs.
Local Open Scope N_scope.

(* ============================================================================================
   C04 - what the endpoint may send follows the stream life cycle *)

(* Every successful method call is the transition of figure 2 for its event (send_open = send H or
   H+ES, send_close = send ES, reserve_local = send PP, set_reset / set_scheduled_reset = send R,
   recv_open = recv H or H+ES, recv_close = recv ES, reserve_remote = recv PP, recv_reset = recv R),
   for all states and all payloads; the three situations where the code is not figure 2 are spelled
   out. *)
Theorem C04_state_step_refines_rfc :
  forall dbg s o s' r d k,
  step dbg s o = (s', r) -> event_of o = Some (d, k) -> res_ok r = true ->
  rfc_step (abs s) d k = Some (abs s')
  \/ (s = ReservedRemote /\ o = ORecvOpen false true /\ s' = ReservedRemote)
  \/ (k = KR /\ s = Idle /\ abs s' = closed)
  \/ (k = KR /\ d = Send /\ abs s = closed /\ abs s' = closed).
Proof. intros dbg s o s' r d k S E K. pose proof (step_against_rfc dbg s o d k E) as H. rewrite S, K in H. exact H. Qed.

(* Once END_STREAM went out (send_open with eos, or send_close), after every later sequence of
   methods: the send half is closed, send_open is refused, the state is never "send streaming"
   again (the guard of send_data and send_trailers), a second END_STREAM would be a panic rather
   than a frame, and the RFC state allows neither DATA nor HEADERS. *)
Theorem C04_state_nothing_after_end_stream :
  forall dbg s s1 os,
  (send_open true s = (s1, RUnit) \/ send_close s = (s1, RUnit)) ->
  let s2 := run dbg s1 os in
  is_send_closed s2 = true /\ is_send_streaming s2 = false /\
  (forall eos, send_open eos s2 = (s2, RUserErr UnexpectedFrameType)) /\
  send_close s2 = (s2, RPanic) /\
  sender_may (abs s2) DATA = false /\ sender_may (abs s2) HEADERS = false.
Proof.
  intros dbg s s1 os E s2. assert (C : is_send_closed s2 = true).
  { apply send_closed_forever. eapply end_stream_closes_send_half; eauto. }
  destruct (send_closed_is_silent s2 C) as (A1 & A2 & A3 & _ & A5 & A6 & _). auto 10.
Qed.

Theorem C04_state_send_closed_forever :
  forall dbg s os, is_send_closed s = true -> is_send_closed (run dbg s os) = true.
Proof. exact send_closed_forever. Qed.

(* After a reset in either direction or a connection error (recv_reset, set_reset, handle_error,
   recv_eof), from any state, with any payload: Closed for every later sequence of methods, nothing
   can be opened, and the RFC state allows PRIORITY only. *)
Theorem C04_state_nothing_after_reset :
  forall dbg s o os,
  is_ending o = true ->
  let s2 := run dbg (fst (step dbg s o)) os in
  is_closed s2 = true /\ is_send_streaming s2 = false /\
  (forall eos, send_open eos s2 = (s2, RUserErr UnexpectedFrameType)) /\
  (forall t, sender_may (abs s2) t = true -> t = PRIORITY).
Proof.
  intros dbg s o os E s2. assert (C : is_closed s2 = true) by apply closed_forever, ending_closes, E.
  destruct (closed_is_silent s2 C) as (A1 & _ & _ & A4 & A5 & _). auto.
Qed.

(* Closed is absorbing together with its cause, except for the relabelling calls
   recv_reset(.., queued = true), set_reset, and set_scheduled_reset without debug assertions.
   A reset that is only scheduled (never written) stays until one of those, any recv_reset or a connection error. *)
Theorem C04_state_closed_cause_forever :
  forall dbg c os,
  unsent c = false ->
  forallb (fun o => negb (relabels dbg o)) os = true -> run dbg (Closed c) os = Closed c.
Proof. exact closed_cause_forever. Qed.

Theorem C04_state_scheduled_cause_forever :
  forall dbg r os,
  forallb (fun o => negb (relabels_unsent dbg o)) os = true ->
  run dbg (Closed (ScheduledLibraryReset r)) os = Closed (ScheduledLibraryReset r).
Proof. intros dbg r os. apply run_fixed. intros o K. apply scheduled_cause_stable, negb_true_iff, K. Qed.

(* The only way to become "send streaming" is a successful send_open(false): nothing is sendable on
   an idle stream, and no other method opens the send half. *)
Theorem C04_state_only_send_open_starts_streaming :
  forall dbg s o,
  is_send_streaming s = false -> is_send_streaming (fst (step dbg s o)) = true ->
  o = OSendOpen false /\ snd (step dbg s o) = RUnit.
Proof.
  intros dbg s o.
  d_state s; cbn [is_send_streaming]; try discriminate; intros _;
    d_op o; try destruct dbg; cbn; intros E; try discriminate; auto.
Qed.

Theorem C04_state_idle_is_silent :
  is_send_streaming Idle = false /\ send_close Idle = (Idle, RPanic) /\
  (forall t, sender_may (abs Idle) t = true -> t = HEADERS \/ t = PRIORITY).
Proof. repeat split; auto. intros [| | | | |]; cbn; auto; discriminate. Qed.

(* what leaves Idle: on the send side only send_open (HEADERS) and reserve_local (PUSH_PROMISE);
   everything else that leaves it is a receive-side event or an ending *)
Theorem C04_state_leaving_idle :
  forall dbg o s' r,
  step dbg Idle o = (s', r) -> s' <> Idle ->
  res_ok r = true /\
  match o with
  | OSendOpen eos => s' = if eos then HalfClosedLocal AwaitingHeaders else Open Streaming AwaitingHeaders
  | OReserveLocal => s' = ReservedLocal
  | ORecvOpen _ _ | OReserveRemote => is_send_streaming s' = false
  | ORecvReset _ _ _ | OHandleError _ | ORecvEof | OSetReset _ _ _ | OSetScheduledReset _ =>
    is_closed s' = true
  | ORecvClose | OSendClose => False
  end.
Proof. intros dbg o s' r. d_op o; try destruct dbg; cbn; intros E N; inversion E; subst; auto; congruence. Qed.

Theorem C04_state_streaming_is_rfc_sendable :
  forall s, is_send_streaming s = true ->
  sender_may (abs s) DATA = true /\ sender_may (abs s) HEADERS = true /\ send_phase s = body.
Proof. intros s. d_state s; cbn; intros E; try discriminate; auto. Qed.

Theorem C04_state_nonvacuous :
  (send_close (Open Streaming Streaming) = (HalfClosedLocal Streaming, RUnit) /\
   send_open true Idle = (HalfClosedLocal AwaitingHeaders, RUnit)) /\
  run true Idle [OReserveLocal; OSendOpen false; OSendClose] = Closed EndStream /\
  run true Idle [ORecvOpen true false; OSendOpen false; OSendClose] = Closed EndStream.
Proof. exact (conj ex_after_end_stream (conj ex_push_server ex_server_exchange)). Qed.

(* ============================================================================================
   C09 - what the endpoint accepts follows the stream life cycle *)

(* A method call that fails leaves the state unchanged, and its event is one RFC 9113 5.1 forbids in
   that state, or a message-opening header section in a direction where 8.1 allows none. *)
Theorem C09_state_error_is_rfc_forbidden :
  forall dbg s o s' r d k,
  step dbg s o = (s', r) -> event_of o = Some (d, k) -> res_ok r = false ->
  s' = s /\
  (rfc_step (abs s) d k = None \/ (is_opening k = true /\ opening_ok (phase_in d s) = false)).
Proof. exact step_error_is_forbidden. Qed.

(* Every event the RFC permits is accepted. *)
Theorem C09_state_rfc_permitted_is_accepted :
  forall dbg s o d k,
  event_of o = Some (d, k) -> rfc_step (abs s) d k <> None ->
  (is_opening k = true -> opening_ok (phase_in d s) = true) ->
  res_ok (snd (step dbg s o)) = true.
Proof.
  intros dbg s o d k E A P. destruct (res_ok (snd (step dbg s o))) eqn:K; [reflexivity|].
  destruct (step_error_is_forbidden dbg s o _ _ d k (surjective_pairing _) E K) as [_ [N|[O Q]]].
  - contradiction.
  - rewrite (P O) in Q. discriminate Q.
Qed.

Theorem C09_state_recv_open_refines :
  forall eos info s s' b,
  recv_open eos info s = (s', RBool b) ->
  ((s = ReservedRemote /\ eos = false /\ info = true /\ s' = ReservedRemote) \/
   rfc_step (abs s) Recv (hk eos) = Some (abs s')) /\
  opening_ok (recv_phase s) = true /\
  recv_phase s' = after_opening eos info /\
  b = (is_idle s || state_eqb s ReservedRemote).
Proof. exact recv_open_refines. Qed.

(* recv_open succeeds exactly under is_recv_headers; every refusal is the connection error
   GoAway(PROTOCOL_ERROR, Library) and leaves the state unchanged. *)
Theorem C09_state_recv_open_verdict :
  forall eos info s,
  (is_recv_headers s = true /\ exists s' b, recv_open eos info s = (s', RBool b)) \/
  (is_recv_headers s = false /\
   recv_open eos info s = (s, RProtoErr (EGoAway [] PROTOCOL_ERROR Library))).
Proof. exact recv_open_verdict. Qed.

Theorem C09_state_recv_open_accepts_required :
  forall eos info s h,
  receiver_must (abs s) h HEADERS = accept -> opening_ok (recv_phase s) = true ->
  exists s' b, recv_open eos info s = (s', RBool b).
Proof. intros eos info s h. d_state s; destruct eos, info; cbn; intros A P; try discriminate; eauto. Qed.

Theorem C09_state_recv_open_conn_error_required :
  forall eos info s h,
  receiver_must (abs s) h HEADERS = conn_error ->
  recv_open eos info s = (s, RProtoErr (library_go_away PROTOCOL_ERROR)).
Proof. intros eos info s h. d_state s; destruct eos, info; cbn; intros A; try discriminate; reflexivity. Qed.

(* the refusals of recv_open beside the RFC's verdict: a connection error where the RFC demands
   one, and also (stricter than required) in half-closed (remote), closed, and on a second
   header section *)
Theorem C09_state_recv_open_refusals :
  forall eos info s h,
  recv_open eos info s = (s, RProtoErr (library_go_away PROTOCOL_ERROR)) ->
  receiver_must (abs s) h HEADERS = conn_error
  \/ (abs s = half_closed_remote /\ receiver_must (abs s) h HEADERS = stream_error)
  \/ abs s = closed
  \/ (receiver_must (abs s) h HEADERS = accept /\ recv_phase s = body).
Proof. intros eos info s h. d_state s; destruct eos, info; cbn; intros E; try discriminate; auto. Qed.

(* recv_close (END_STREAM on DATA or trailers) succeeds exactly where the RFC accepts DATA, as the
   transition of figure 2; elsewhere GoAway(PROTOCOL_ERROR, Library), state unchanged. *)
Theorem C09_state_recv_close_verdict :
  forall s h,
  (receiver_must (abs s) h DATA = accept /\ snd (recv_close s) = RUnit /\
   rfc_step (abs s) Recv KES = Some (abs (fst (recv_close s)))) \/
  (receiver_must (abs s) h DATA <> accept /\ rfc_step (abs s) Recv KES = None /\
   recv_close s = (s, RProtoErr (EGoAway [] PROTOCOL_ERROR Library))).
Proof. exact recv_close_verdict. Qed.

(* RST_STREAM, with any code, is never an error for the state machine; on a closed stream (whose reset, if any, was written) with
   nothing queued it changes nothing; the only state where the RFC wants a connection error is
   idle (refused by the caller, `ensure_not_idle`). *)
Theorem C09_state_recv_reset_tolerated :
  forall sid r q s,
  snd (recv_reset sid r q s) = RUnit /\
  is_closed (fst (recv_reset sid r q s)) = true /\
  (is_closed s = true -> q = false -> get_scheduled_reset s = None -> fst (recv_reset sid r q s) = s) /\
  (receiver_must (abs s) (how_of s) RST_STREAM = conn_error -> s = Idle).
Proof. intros sid r q s. d_state s; destruct q; cbn; repeat split; auto; intros; discriminate. Qed.

(* is_local_error - the test under which streams.rs discards late frames - is exactly "closed by a
   reset or error of our own", where the RFC requires every late frame to be tolerated. *)
Theorem C09_state_local_error_iff :
  forall s,
  is_local_error s = true <-> (abs s = closed /\ is_reset s = true /\ how_of s = by_sent_reset).
Proof. exact local_error_iff. Qed.

Theorem C09_state_local_error_means_tolerate :
  forall s t,
  is_local_error s = true ->
  receiver_must (abs s) (how_of s) t = tolerate \/ receiver_must (abs s) (how_of s) t = accept.
Proof.
  intros s t L. apply local_error_iff in L as (A & _ & Hw). rewrite A, Hw.
  destruct t; cbn; auto.
Qed.

Theorem C09_state_local_reset_is_flagged :
  forall dbg sid r i s,
  i <> Remote ->
  is_local_error (fst (set_reset sid r i s)) = true /\
  (snd (set_scheduled_reset dbg r s) = RUnit ->
   is_local_error (fst (set_scheduled_reset dbg r s)) = true) /\
  is_local_error (fst (recv_reset sid r true s)) = false.
Proof.
  intros dbg sid r i s NR. repeat split.
  - destruct i; cbn; auto; congruence.
  - unfold set_scheduled_reset. destruct (dbg && is_closed s); cbn; auto; discriminate.
  - d_state s; reflexivity.
Qed.

Theorem C09_state_nonvacuous :
  (recv_open false false (Open Streaming AwaitingHeaders) = (Open Streaming Streaming, RBool false) /\
   recv_open true false Idle = (HalfClosedRemote AwaitingHeaders, RBool true)) /\
  (step true (HalfClosedLocal Streaming) (OSendOpen false)
     = (HalfClosedLocal Streaming, RUserErr UnexpectedFrameType) /\
   step true (HalfClosedRemote Streaming) ORecvClose
     = (HalfClosedRemote Streaming, RProtoErr (library_go_away PROTOCOL_ERROR)) /\
   step true Idle OSendClose = (Idle, RPanic) /\
   step true (Closed EndStream) (OSetScheduledReset 8) = (Closed EndStream, RPanic) /\
   step false (Closed EndStream) (OSetScheduledReset 8) = (Closed (ScheduledLibraryReset 8), RUnit)) /\
  (is_local_error (Closed (CError (EReset 1 8 Library))) = true /\
   is_local_error (Closed (CError (EReset 1 8 Remote))) = false) /\
  run true Idle [OReserveRemote; ORecvOpen false true] = ReservedRemote.
Proof. exact (conj ex_recv_open_refines (conj ex_errors (conj ex_local_error ex_push_client_1xx))). Qed.

(* ============================================================================================
   C17 - the error that ended the stream is what its handles report, for every code *)

(* The peer's RST_STREAM(sid, r) on a stream that is not closed (or closed with frames queued): both
   poll_reset flavours report Ok(Some(r)); a read reports Err(Reset(sid, r, Remote)) - unless the
   peer's END_STREAM had already been received, then the read ends cleanly (Ok(false)): the message
   was complete, the reset only concerns what we were still sending. *)
Theorem C17_state_recv_reset_surfaces :
  forall sid r q s,
  is_closed s = false \/ q = true ->
  let s' := fst (recv_reset sid r q s) in
  both_modes (fun m => ensure_reason m s') (RReason (Some r)) /\
  is_remote_reset s' = true /\ is_reset s' = true /\ is_local_error s' = false /\
  (is_recv_end_stream s = false ->
     s' = Closed (CError (EReset sid r Remote)) /\
     ensure_recv_open s' = RProtoErr (EReset sid r Remote)) /\
  (is_recv_end_stream s = true ->
     s' = Closed (ErrorAfterEndStream (EReset sid r Remote)) /\
     ensure_recv_open s' = RBool false /\ is_recv_end_stream s' = true).
Proof. exact recv_reset_surfaces. Qed.

(* A connection-level error e (GOAWAY with its debug data, code and initiator; I/O error with kind
   and message; reset) on a stream that is not closed: the cause records exactly e, poll_reset
   reports its code, and a read reports exactly e - unless the peer's message was already complete
   (HalfClosedRemote), then the read ends cleanly. *)
Theorem C17_state_handle_error_surfaces :
  forall e s,
  is_closed s = false ->
  let s' := fst (handle_error e s) in
  (is_recv_end_stream s = false ->
     s' = Closed (CError e) /\ ensure_recv_open s' = RProtoErr e) /\
  (is_recv_end_stream s = true ->
     s' = Closed (ErrorAfterEndStream e) /\ ensure_recv_open s' = RBool false /\
     is_recv_end_stream s' = true) /\
  is_local_error s' = error_is_local e /\
  match e with
  | EReset _ r _ | EGoAway _ r _ => both_modes (fun m => ensure_reason m s') (RReason (Some r))
  | EIo _ _ => both_modes (fun m => ensure_reason m s') (RProtoErr e)
  end.
Proof. exact handle_error_surfaces. Qed.

Theorem C17_state_go_away_surfaces :
  forall debug r i s,
  is_closed s = false ->
  let s' := fst (handle_error (EGoAway debug r i) s) in
  (is_recv_end_stream s = false -> ensure_recv_open s' = RProtoErr (EGoAway debug r i)) /\
  (is_recv_end_stream s = true -> ensure_recv_open s' = RBool false) /\
  (s' = Closed (CError (EGoAway debug r i)) \/ s' = Closed (ErrorAfterEndStream (EGoAway debug r i))) /\
  both_modes (fun m => ensure_reason m s') (RReason (Some r)) /\
  is_local_error s' = initiator_is_local i.
Proof.
  intros debug r i s NC. destruct (handle_error_surfaces (EGoAway debug r i) s NC) as (A & B & C & D).
  repeat split; try tauto; try apply D.
  destruct (is_recv_end_stream s); [right; apply B | left; apply A]; reflexivity.
Qed.

Theorem C17_state_recv_eof_surfaces :
  forall s,
  is_closed s = false ->
  let s' := fst (recv_eof s) in
  (is_recv_end_stream s = false ->
     s' = Closed (CError (EIo IO_BROKEN_PIPE (Some EOF_MSG))) /\
     ensure_recv_open s' = RProtoErr (EIo IO_BROKEN_PIPE (Some EOF_MSG))) /\
  (is_recv_end_stream s = true ->
     s' = Closed (ErrorAfterEndStream (EIo IO_BROKEN_PIPE (Some EOF_MSG))) /\
     ensure_recv_open s' = RBool false /\ is_recv_end_stream s' = true) /\
  both_modes (fun m => ensure_reason m s') (RProtoErr (EIo IO_BROKEN_PIPE (Some EOF_MSG))).
Proof.
  intros s NC. unfold both_modes.
  d_state s; cbn in NC |- *; try discriminate; repeat split; auto; intros; discriminate.
Qed.

Theorem C17_state_set_reset_surfaces :
  forall sid r i s,
  let s' := fst (set_reset sid r i s) in
  s' = Closed (CError (EReset sid r i)) /\
  ensure_recv_open s' = RProtoErr (EReset sid r i) /\
  both_modes (fun m => ensure_reason m s') (RReason (Some r)) /\
  is_local_error s' = initiator_is_local i /\
  is_remote_reset s' = negb (initiator_is_local i).
Proof. intros sid r i s. unfold both_modes. destruct i; cbn; auto 10. Qed.

Theorem C17_state_scheduled_reset_surfaces :
  forall dbg r s,
  snd (set_scheduled_reset dbg r s) = RUnit ->
  let s' := fst (set_scheduled_reset dbg r s) in
  get_scheduled_reset s' = Some r /\
  ensure_recv_open s' = RProtoErr (EGoAway [] r Library) /\
  both_modes (fun m => ensure_reason m s') (RReason (Some r)).
Proof. intros dbg r s. unfold set_scheduled_reset, both_modes. destruct (dbg && is_closed s); cbn; auto; discriminate. Qed.

(* and it stays so for every later method sequence that contains no relabelling call *)
Theorem C17_state_error_persists :
  forall dbg e os,
  forallb (fun o => negb (relabels dbg o)) os = true ->
  let s' := run dbg (Closed (CError e)) os in
  ensure_recv_open s' = RProtoErr e /\
  (forall m, ensure_reason m s' = ensure_reason m (Closed (CError e))).
Proof. intros dbg e os F s'. subst s'. rewrite closed_cause_forever by (auto; reflexivity). auto. Qed.

Theorem C17_state_first_error_wins :
  forall e c,
  (unsent c = false -> fst (handle_error e (Closed c)) = Closed c) /\ fst (recv_eof (Closed c)) = Closed c /\
  (unsent c = false -> forall sid r, fst (recv_reset sid r false (Closed c)) = Closed c).
Proof. intros e c. repeat split; intros U; destruct c; try discriminate U; reflexivity. Qed.

(* fix 4db16d5 of /repo: no RST_STREAM for a stream the error already ended *)
Theorem C17_state_scheduled_reset_gives_way_conn :
  forall e r, fst (handle_error e (Closed (ScheduledLibraryReset r))) = Closed (CError e).
Proof. intros e r. reflexivity. Qed.

(* a reset the library only scheduled was never seen by the peer: the peer's RST_STREAM is the cause *)
Theorem C17_state_scheduled_reset_gives_way :
  forall sid reason r,
  fst (recv_reset sid reason false (Closed (ScheduledLibraryReset r)))
    = Closed (CError (remote_reset sid reason)).
Proof. intros sid reason r. reflexivity. Qed.

Theorem C17_state_nonvacuous :
  (is_closed (Open Streaming Streaming) = false /\
   fst (recv_reset 5 3735928559 false (Open Streaming Streaming))
     = Closed (CError (EReset 5 3735928559 Remote)) /\
   fst (recv_reset 5 3735928559 true (Closed EndStream))
     = Closed (ErrorAfterEndStream (EReset 5 3735928559 Remote)) /\
   fst (recv_reset 5 0 true (HalfClosedRemote Streaming))
     = Closed (ErrorAfterEndStream (EReset 5 0 Remote))) /\
  (ensure_recv_open (fst (handle_error (EGoAway [1; 2; 3] 4294967295 Remote) (HalfClosedLocal Streaming)))
     = RProtoErr (EGoAway [1; 2; 3] 4294967295 Remote) /\
   ensure_reason PRStreaming (fst (handle_error (EGoAway [1; 2; 3] 4294967295 Remote) (HalfClosedLocal Streaming)))
     = RReason (Some 4294967295)) /\
  forallb (fun o => negb (relabels true o)) [ORecvReset 1 2 false; OHandleError eof_error; ORecvEof;
                                              OSendOpen true; OSetScheduledReset 3] = true.
Proof. exact (conj ex_recv_reset_surfaces (conj ex_go_away_surfaces ex_no_relabel)). Qed.

(* ============================================================================================
   C07 - however the connection ends, every stream ends *)

(* After handle_error or recv_eof from ANY state, for every later method sequence: closed, nothing
   receivable or sendable, and a read ends - cleanly or with an error, never pending. *)
Theorem C07_state_connection_end_closes_forever :
  forall dbg s o os,
  conn_ending o = true ->
  let s2 := run dbg (fst (step dbg s o)) os in
  is_closed s2 = true /\
  is_recv_headers s2 = false /\ is_recv_streaming s2 = false /\ is_send_streaming s2 = false /\
  (ensure_recv_open s2 = RBool false \/ exists e, ensure_recv_open s2 = RProtoErr e).
Proof.
  intros dbg s o os E s2. assert (C : is_closed s2 = true).
  { apply closed_forever, ending_closes. destruct o; try discriminate E; reflexivity. }
  destruct (closed_is_silent s2 C) as (A1 & A2 & A3 & _ & _ & A6). auto 6.
Qed.

Theorem C07_state_closed_forever :
  forall dbg s os, is_closed s = true -> is_closed (run dbg s os) = true.
Proof. exact closed_forever. Qed.

(* after a connection ending, a pending or later read on the stream ends either cleanly or with
   an error, never "still open" *)
Theorem C07_state_closed_never_pending :
  forall s, is_closed s = true -> ensure_recv_open s <> RBool true.
Proof. intros s. d_state s; cbn; try discriminate. Qed.

(* A stream whose peer had finished its message (is_recv_end_stream: HalfClosedRemote,
   Closed(EndStream), Closed(ErrorAfterEndStream)) keeps the clean end when the connection ends:
   after handle_error / recv_eof and every later method sequence without a relabelling call
   (recv_reset(.., queued = true), set_reset, set_scheduled_reset without debug assertions), a read
   still ends with Ok(false) and is_recv_end_stream still holds; a stream already closed is
   untouched; a HalfClosedRemote stream records the error as Closed(ErrorAfterEndStream e), and
   poll_reset reports e's code (Reset, GoAway) or e itself (Io). *)
Theorem C07_state_completed_message_after_connection_end :
  forall dbg s o os,
  conn_ending o = true -> is_recv_end_stream s = true ->
  forallb (fun o' => negb (relabels dbg o')) os = true ->
  let s1 := fst (step dbg s o) in
  let s2 := run dbg s1 os in
  s2 = s1 /\ is_closed s2 = true /\
  is_recv_end_stream s2 = true /\ ensure_recv_open s2 = RBool false /\
  (is_closed s = true -> s1 = s) /\
  (is_closed s = false ->
   exists p e, s = HalfClosedRemote p /\ s1 = Closed (ErrorAfterEndStream e) /\
               (o = OHandleError e \/ (o = ORecvEof /\ e = eof_error)) /\
               forall m, ensure_reason m s2 = reason_report e).
Proof. exact completed_message_after_connection_end. Qed.

(* The repaired defect: without the HalfClosedRemote arm (handle_error_old = h2 before the fix) the
   clean end of a completely received message was replaced by the connection error. *)
Theorem C07_state_fix_needed :
  ~ (forall e s, is_recv_end_stream s = true ->
                 ensure_recv_open (fst (handle_error_old e s)) = RBool false) /\
  (forall e s, is_recv_end_stream s = true ->
               ensure_recv_open (fst (handle_error e s)) = RBool false) /\
  (forall e p, is_recv_end_stream (HalfClosedRemote p) = true /\
               ensure_recv_open (HalfClosedRemote p) = RBool false /\
               ensure_recv_open (fst (handle_error_old e (HalfClosedRemote p))) = RProtoErr e).
Proof. exact fix_needed. Qed.

(* in contrast the peer's RST_STREAM keeps the received END_STREAM, in every state *)
Theorem C07_state_recv_reset_keeps_end_stream :
  forall sid r q s,
  is_recv_end_stream s = true ->
  is_recv_end_stream (fst (recv_reset sid r q s)) = true /\
  ensure_recv_open (fst (recv_reset sid r q s)) = RBool false.
Proof. intros sid r q s. d_state s; destruct q; cbn; intros E; try discriminate; auto. Qed.

Theorem C07_state_nonvacuous :
  (is_recv_end_stream (HalfClosedRemote Streaming) = true /\
   ensure_recv_open (HalfClosedRemote Streaming) = RBool false /\
   fst (recv_eof (HalfClosedRemote Streaming)) = Closed (ErrorAfterEndStream eof_error) /\
   ensure_recv_open (fst (recv_eof (HalfClosedRemote Streaming))) = RBool false /\
   ensure_recv_open (fst (recv_eof (Closed EndStream))) = RBool false /\
   ensure_recv_open (fst (recv_eof (Open Streaming Streaming))) = RProtoErr eof_error) /\
  run true Idle [OSendOpen false; OSendClose; ORecvOpen false true; ORecvOpen false false; ORecvClose]
    = Closed EndStream.
Proof. exact (conj ex_completed_then_eof ex_client_exchange). Qed.
