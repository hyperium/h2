(* C15 — GOAWAY: the last-stream ids an endpoint sends never increase and are never below a processed peer stream; after
   receiving GOAWAY(L) the send side is capped at L, a larger L later is a connection error, the connection's result reports
   the peer's code and debug data; graceful shutdown.
   Statements (proofs: Proofs/ControlProofs.v; model: Model/Control.v). *)
From H2V Require Import Base.Tac Base.Bytes Model.Control Proofs.ControlProofs.
Local Open Scope N_scope.

(* For ALL label sequences: (newest first) the last_stream_ids of the emitted GOAWAY frames never increase; each is >= the
   highest peer-initiated stream id processed before its emission (second component of the log entry); and the highest
   processed id never exceeds Recv::max_stream_id. *)
Theorem C15_monotone :
  forall p0 ls s tr,
  crun (init p0) ls = inl (s, tr) ->
  let h := hG_ (upd_trace (hist0 p0) tr) in
  desc (hg_goaways h) /\ Forall (fun e => snd e <= fst e) (hg_goaways h) /\ hg_maxproc h = r_last s /\ r_last s <= r_max s.
Proof.
  intros p0 ls s tr H h. destruct (run_init _ _ _ _ H) as (HG & _). fold h in HG.
  split; [apply (G10 _ _ HG)|]. split; [apply (G9 _ _ HG)|]. split; [apply (G8 _ _ HG)|apply (G5 _ _ HG)].
Qed.

(* the assert! of GoAway::go_away (and every other assert of the four files and of Recv::go_away) never fires *)
Theorem C15_no_assert :
  forall p0 ls, match crun (init p0) ls with inr (_, SPanic _) => False | _ => True end.
Proof. exact C15_no_assert. Qed.

(* HEADERS above Recv::max_stream_id never raise last_processed_id (a guard of the model that the lock-step checks), and
   go_away(id) lowers max_stream_id in the same label (C15_shutdown_pong below) *)
Theorem C15_headers_above_max_ignored :
  forall s id, can_recv s = true -> r_max s < id -> cstep s (LRecv (InHeaders id true)) = SStuck 11.
Proof. intros s id Hc Hlt. cbn [cstep]. rewrite Hc. cbn [negb recv_frame]. destruct (r_max s <? id) eqn:E; [reflexivity|lia]. Qed.

Theorem C15_recv_goaway_accept :
  forall s last reason debug,
  can_recv s = true -> last <= s_max s ->
  cstep s (LRecv (InGoAway last reason debug)) =
  SOk (set_conn (set_ids s (r_last s) (r_max s) last) (c_state s) (Some (last, reason, debug)))
      [OStreamsGoAway last reason debug] FNext.
Proof. intros s last reason debug Hc Hle. cbn [cstep]. rewrite Hc. cbn [negb recv_frame]. destruct (s_max s <? last) eqn:E; [lia|reflexivity]. Qed.

Theorem C15_recv_goaway_increase :
  forall s h last reason debug,
  InvG s h -> can_recv s = true -> s_max s < last ->
  cstep s (LRecv (InGoAway last reason debug)) =
  SOk (set_ga s true (Some (r_last s, PROTOCOL_ERROR)) (g_user s) (Some (r_last s, PROTOCOL_ERROR, []))) [OStreamsError] FLoop.
Proof.
  intros s h last reason debug HI Hc Hlt. cbn [cstep]. rewrite Hc. cbn [negb recv_frame]. destruct (s_max s <? last) eqn:E; [|lia].
  apply can_recv_spec in Hc as (Hpr & _). apply in_poll_ready_spec in Hpr as (_ & _ & Hcn).
  cbn [handle_result]. rewrite (handle_go_away_fresh _ h); auto. discriminate.
Qed.

Theorem C15_recv_goaways :
  forall p0 ls s tr,
  crun (init p0) ls = inl (s, tr) ->
  let h := hE_ (upd_trace (hist0 p0) tr) in
  s_max s = head_last h /\ descE h /\ (forall l r d, c_error s = Some (l, r, d) -> hd_error h = Some (l, r, d)).
Proof. intros p0 ls s tr H h. destruct (run_init _ _ _ _ H) as (_ & _ & _ & _ & (A & B & C) & _). auto. Qed.

Theorem C15_take_error :
  forall s ours i,
  c_state s = CClosed ours i ->
  cstep s LTakeError = SOk (set_conn s (CClosed ours i) None) [OConnResult (conn_result ours i (c_error s))] FReturn.
Proof. intros s ours i E. cbn [cstep]. rewrite E. unfold conn_result. destruct (c_error s) as [[[l r] d]|]; reflexivity. Qed.

Theorem C15_graceful_start :
  forall s h,
  InvG s h -> g_going s = None ->
  cstep s LGraceful =
  SOk (set_ping (set_ga (set_ids s (r_last s) MAX_ID (s_max s)) (g_close_now s) (Some (MAX_ID, NO_ERROR)) (g_user s)
                        (Some (MAX_ID, NO_ERROR, [])))
                (Some (PING_SHUTDOWN, false)) (p_pong s) (p_user s))
      [ORecvMax MAX_ID] FNext.
Proof. exact C15_graceful_start. Qed.

Theorem C15_graceful_twice :
  forall s, g_going s <> None -> cstep s LGraceful = SOk s [] FNext.
Proof. intros s H. cbn [cstep]. destruct (g_going s); [reflexivity|contradiction]. Qed.

Theorem C15_goaway_emit :
  forall s l d,
  is_open s = true -> g_pending s = Some (l, NO_ERROR, d) -> g_close_now s = false ->
  cstep s (LPollGoAway Ready) = SOk (set_ga s false (g_going s) (g_user s) None) [OFrame (WGoAway l NO_ERROR d)] FNext.
Proof. intros s l d Ho Ep Ec. cbn [cstep]. rewrite Ho, Ep, Ec. cbn [negb]. unfold after_go_away, should_close_now. cbn. reflexivity. Qed.

Theorem C15_shutdown_ping_emit :
  forall s pl,
  in_poll_ready s = true -> p_ping s = Some (pl, false) ->
  cstep s (LPollPing Ready) = SOk (set_ping s (Some (pl, true)) (p_pong s) (p_user s)) [OFrame (WPing false pl)] FNext.
Proof. intros s pl Hr Ep. cbn [cstep]. rewrite Hr, Ep. reflexivity. Qed.

Theorem C15_shutdown_pong :
  forall s h b,
  InvG s h -> can_recv s = true -> p_ping s = Some (PING_SHUTDOWN, b) ->
  cstep s (LRecv (InPing true PING_SHUTDOWN)) =
  SOk (set_ga (set_ids (set_ping s None None (p_user s)) (r_last s) (r_last s) (s_max s)) false (Some (r_last s, NO_ERROR))
              (g_user s) (Some (r_last s, NO_ERROR, [])))
      [ORecvMax (r_last s)] FNext.
Proof. exact C15_shutdown_pong. Qed.

(* known finding KF-C15-1 (should_close_on_idle's `!= StreamId::MAX` test): closing when idle is proved except when the final
   GOAWAY names stream 2^31-1, and refuted in that case *)
Theorem C15_idle_close_except_known :
  forall s l r,
  is_open s = true -> g_close_now s = false -> g_going s = Some (l, r) -> l <> MAX_ID ->
  cstep s (LIdle false) = lift (ga_go_away_now s (r_last s, NO_ERROR, [])) [] FNext.
Proof.
  intros s l r Ho Ec Eg Hl. cbn [cstep]. rewrite Ho. cbn [negb]. unfold should_close_on_idle. rewrite Ec, Eg.
  destruct (l =? MAX_ID) eqn:E; [apply N.eqb_eq in E; contradiction|]. cbn [negb andb orb].
  destruct (c_error s); reflexivity.
Qed.

(* ... and without it the statement is false: when the final GOAWAY names stream 2^31-1 (the peer's processed stream has the
   maximal id) the idle branch never starts the close, whether or not streams are left: Connection::poll returns Pending *)
Theorem C15_idle_close_known_refuted :
  forall s r hs,
  is_open s = true -> g_close_now s = false -> g_going s = Some (MAX_ID, r) -> c_error s = None ->
  cstep s (LIdle hs) = SOk s [] FPending.
Proof.
  intros s r hs Ho Ec Eg Ee. cbn [cstep]. rewrite Ho. cbn [negb]. unfold should_close_on_idle. rewrite Ec, Eg, Ee.
  rewrite N.eqb_refl. reflexivity.
Qed.

Theorem C15_known_refuted_run :
  match crun (init no_params)
             [ LPollGoAway Ready; LPollPong Ready; LPollPing Ready; LSettingsAck Ready None; LSettingsLocal Ready;
               LRecv (InHeaders MAX_ID true); LGraceful;
               LPollGoAway Ready; LPollPong Ready; LPollPing Ready; LSettingsAck Ready None; LSettingsLocal Ready;
               LRecv (InPing true PING_SHUTDOWN);
               LPollGoAway Ready; LPollPong Ready; LPollPing Ready; LSettingsAck Ready None; LSettingsLocal Ready;
               LIdle false ] with
  | inl (s, tr) =>
    frames_of tr = [WGoAway MAX_ID NO_ERROR []; WPing false PING_SHUTDOWN; WGoAway MAX_ID NO_ERROR []] /\
    c_state s = COpen /\ g_close_now s = false /\ snd (last tr (LIdle false, [], FNext)) = FPending
  | inr _ => False
  end.
Proof. exact demo_known_refuted. Qed.

Theorem C15_close_now_closes :
  forall s h l r,
  InvG s h -> is_open s = true -> g_close_now s = true -> g_user s = false -> g_going s = Some (l, r) ->
  exists o, cstep s (LPollGoAway Ready) =
            SOk (set_conn (set_ga s true (Some (l, r)) false None) (CClosing r ILibrary) (c_error s)) o FLoop /\
            (o = [] \/ exists d, g_pending s = Some (l, r, d) /\ o = [OFrame (WGoAway l r d)]).
Proof.
  intros s h l r HI Ho Ec Eu Eg. destruct (close_now_closes s h l r HI Ho Ec Eg) as (o & E & H).
  rewrite Eu in E. exists o. auto.
Qed.

Theorem C15_closing_closed :
  forall s r i,
  c_state s = CClosing r i -> cstep s (LShutdown Ready) = SOk (set_conn s (CClosed r i) (c_error s)) [] FNext.
Proof. intros s r i E. cbn [cstep]. rewrite E. reflexivity. Qed.

Theorem C15_nonvacuous :
  match crun (init no_params) demo_labels2 with
  | inl (s, tr) =>
    frames_of tr = [WGoAway 0 PROTOCOL_ERROR []] /\ results_of tr = [CRGoAway [100; 98; 103] 2 IRemote] /\ s_max s = 7
  | inr _ => False
  end.
Proof. exact demo_control2. Qed.

Theorem C15_nonvacuous_graceful :
  match crun (init no_params) demo_labels with
  | inl (s, tr) =>
    frames_of tr = [ WSettingsAck; WPing true 77; WPing false PING_USER; WGoAway MAX_ID NO_ERROR []; WPing false PING_SHUTDOWN;
                     WGoAway 3 NO_ERROR [] ] /\
    results_of tr = [CROk] /\ c_state s = CClosed NO_ERROR ILibrary /\ r_last s = 3 /\ r_max s = 3
  | inr _ => False
  end.
Proof. exact demo_control. Qed.
