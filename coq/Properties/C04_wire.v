(* C04 at the dispatch layer: what the API calls put on a stream's queue, what leaves the queues, the identifiers.
   Statements; the proofs are in Proofs/DispatchSend.v.  Model: Model/Dispatch.v (lock-step:
   lib/props/parts/dispatch.py, which compares at every pop the frame that really left the queue); composed with
   C04_state_* of Properties/StreamState.v (a successful send_open / send_close is the transition of RFC 9113 5.1;
   after END_STREAM or a reset the state machine refuses every further send).  One step from ANY state, all observed
   inputs.  Order within a stream is queue order (Model/DataPath.v: C01_send_split_preserves for DATA frames written
   in parts); order across streams is whatever sequence of LPop occurs.  The reference sender automaton these local
   facts are meant to establish for whole emission logs is Ref/Rfc9113Stream.v wire_step / wire_accepts. *)
From H2V Require Import Base.Tac Base.Bytes Model.StreamState Ref.Rfc9113Stream Proofs.StreamStateProofs
  Model.Dispatch Proofs.DispatchRecv Proofs.DispatchReset Proofs.DispatchSend.
Local Open Scope N_scope.

(* a new request: refused without a trace when the identifiers have run out (never wrapped), for a server, after a
   connection error; else it takes next_stream_id, its HEADERS wait behind the concurrency gate, next_stream_id moves
   to the next identifier of the same parity or to the overflow marker *)
Theorem C04_wire_send_request_opens :
  forall st eos rejected hdr_ok nk st' outs,
  ids_wf st = true ->
  step st (LSendRequest eos rejected hdr_ok nk) = Ok st' outs ->
  match result_of outs with
  | ROk =>
    exists id, c_send_next st = Some id /\ c_send_next st' = next_id id /\ is_server (c_role st) = false /\
               c_conn_error st = None /\
               queued_all outs = [(id, QHeaders eos false)] /\
               kget st' nk = Some (mkS id (fst (send_open eos Idle)) true false false [QHeaders eos false] None) /\
               snd (send_open eos Idle) = RUnit /\
               (forall k, k <> nk -> kget st' k = kget st k)
  | _ => queued_all outs = [] /\ c_slab st' = c_slab st /\ c_ids st' = c_ids st /\
         (c_send_next st = None -> st' = st /\ result_of outs = RUser UOverflowedStreamId \/ c_conn_error st <> None)
  end.
Proof. exact send_request_opens. Qed.

Theorem C04_wire_next_id_increases :
  forall id n, next_id id = Some n -> id < n /\ n mod 2 = id mod 2 /\ n <= MAX_ID.
Proof.
  intros id n.
  unfold next_id. destruct (MAX_ID <? id + 2) eqn:E; [discriminate|]. intros H; inversion H; subst.
  apply N.ltb_ge in E. split; [lia|]. split; [|lia].
  replace (id + 2) with (id + 1 * 2) by lia. apply N.mod_add. lia.
Qed.

(* a PUSH_PROMISE: only from a server, on a stream of the peer whose send half is not closed (open or half-closed
   (remote) for the peer), while the peer accepts pushes and below its GOAWAY; the promised stream gets our next
   identifier and is gated behind its PUSH_PROMISE *)
Theorem C04_wire_push_request_reserves :
  forall st k convert_ok hdr_ok nk st' outs parent,
  kget st k = Some parent -> step st (LPushRequest k convert_ok hdr_ok nk) = Ok st' outs ->
  has_emit outs = false /\
  match result_of outs with
  | ROk =>
    exists id, c_send_next st = Some id /\ c_send_next st' = next_id id /\ (c_send_max st <? id) = false /\
               is_server (c_role st) = true /\ is_local_init (c_role st) (s_id parent) = false /\
               c_push_remote st = true /\ is_send_closed (s_state parent) = false /\
               queued_all outs = [(s_id parent, QPush id)] /\
               kget st' nk = Some (mkS id ReservedLocal false true false [] None) /\
               (exists p', kget st' k = Some p' /\ s_q p' = s_q parent ++ [QPush id] /\ s_state p' = s_state parent)
  | _ => queued_all outs = []
  end.
Proof. exact push_request_reserves. Qed.

(* HEADERS / DATA / trailers / interim responses are queued exactly where the state machine's send_open /
   is_send_streaming / is_send_awaiting_headers permit them, at the end of that stream's queue *)
Theorem C04_wire_send_response_queues :
  forall st k eos hdr_ok st' outs r,
  kget st k = Some r -> step st (LSendResponse k eos hdr_ok) = Ok st' outs ->
  (forall k', k' <> k -> kget st' k' = kget st k') /\ has_emit outs = false /\
  match result_of outs with
  | ROk => exists s', send_open eos (s_state r) = (s', RUnit) /\ queued_all outs = [(s_id r, QHeaders eos false)] /\
                      exists r', kget st' k = Some r' /\ s_state r' = s' /\ s_q r' = s_q r ++ [QHeaders eos false]
  | _ => queued_all outs = [] /\ st' = st
  end.
Proof. exact send_response_queues. Qed.

Theorem C04_wire_send_data_queues :
  forall st k eos too_big st' outs r,
  kget st k = Some r -> step st (LSendData k eos too_big) = Ok st' outs ->
  (forall k', k' <> k -> kget st' k' = kget st k') /\ has_emit outs = false /\
  match result_of outs with
  | ROk => is_send_streaming (s_state r) = true /\ queued_all outs = [(s_id r, QData eos)] /\
           exists r', kget st' k = Some r' /\ s_q r' = s_q r ++ [QData eos] /\
                      s_state r' = (if eos then fst (send_close (s_state r)) else s_state r)
  | _ => queued_all outs = [] /\ st' = st
  end.
Proof. exact send_data_queues. Qed.

Theorem C04_wire_send_trailers_queues :
  forall st k hdr_ok st' outs r,
  kget st k = Some r -> step st (LSendTrailers k hdr_ok) = Ok st' outs ->
  (forall k', k' <> k -> kget st' k' = kget st k') /\ has_emit outs = false /\
  match result_of outs with
  | ROk => is_send_streaming (s_state r) = true /\ queued_all outs = [(s_id r, QTrailers)] /\
           exists r', kget st' k = Some r' /\ s_q r' = s_q r ++ [QTrailers] /\ s_state r' = fst (send_close (s_state r))
  | _ => queued_all outs = [] /\ st' = st
  end.
Proof. exact send_trailers_queues. Qed.

Theorem C04_wire_send_info_queues :
  forall st k eos hdr_ok st' outs r,
  kget st k = Some r -> step st (LSendInfo k eos hdr_ok) = Ok st' outs ->
  (forall k', k' <> k -> kget st' k' = kget st k') /\ has_emit outs = false /\
  match result_of outs with
  | ROk => is_send_awaiting_headers (s_state r) = true /\ eos = false /\ queued_all outs = [(s_id r, QHeaders false true)] /\
           exists r', kget st' k = Some r' /\ s_q r' = s_q r ++ [QHeaders false true] /\ s_state r' = s_state r
  | _ => queued_all outs = [] /\ st' = st
  end.
Proof. exact send_info_queues. Qed.

(* nothing is sent on a stream that is idle on the wire: pop_frame never visits a stream whose HEADERS wait for a
   concurrency slot or whose PUSH_PROMISE is still queued *)
Theorem C04_wire_pop_needs_send_ready :
  forall st k o st' outs r,
  kget st k = Some r -> step st (LPop k o) = Ok st' outs -> s_popen r = false /\ s_ppush r = false.
Proof.
  intros st k o st' outs r Hk. cbn [step]. unfold step_pop. rewrite Hk.
  destruct (s_popen r), (s_ppush r); cbn [orb]; try discriminate. auto.
Qed.

(* what goes to the codec is the front of that stream's queue (a DATA frame possibly in part, then without END_STREAM),
   or with an empty queue the scheduled RST_STREAM: at most one frame, in queue order *)
Theorem C04_wire_pop_emits_front :
  forall st k o st' outs r,
  kget st k = Some r -> step st (LPop k o) = Ok st' outs ->
  match outs_emitted_frames outs with
  | [] => True
  | [WFrame sid f] =>
    sid = s_id r /\
    match s_q r with
    | [] => exists reason, get_scheduled_reset (s_state r) = Some reason /\ f = QReset reason
    | QData eos :: _ => f = QData eos \/ (f = QData false /\ pp_partial o = true)
    | g :: _ => f = g
    end
  | _ => False
  end.
Proof. exact pop_emits_front. Qed.

Theorem C04_wire_window_update_only_receiving :
  forall st k has st' outs r,
  kget st k = Some r -> step st (LSendWindowUpdate k has) = Ok st' outs ->
  st' = st /\ (outs = [] \/ (outs = [OEmit (WWindowUpdate (s_id r))] /\ is_recv_streaming (s_state r) = true)).
Proof.
  intros st k has st' outs r Hk. cbn [step]. unfold step_send_window_update. rewrite Hk.
  destruct (is_recv_streaming (s_state r)); cbn [andb]; [destruct has|]; intros H; inversion H; auto.
Qed.

(* after END_STREAM (queued or sent) or a reset no API call queues another HEADERS or DATA frame on the stream *)
Theorem C04_wire_send_closed_queues_nothing :
  forall st l k r st' outs,
  kget st k = Some r -> is_send_closed (s_state r) = true ->
  ((exists eos tb, l = LSendData k eos tb) \/ (exists h, l = LSendTrailers k h) \/
   (exists eos h, l = LSendResponse k eos h) \/ (exists eos h, l = LSendInfo k eos h)) ->
  step st l = Ok st' outs -> queued_all outs = [] /\ st' = st.
Proof. exact send_closed_queues_nothing. Qed.

(* at most one RST_STREAM per record: C17_wire_no_second_reset, C17_wire_reset_emitted_only_if_queued,
   C09_wire_poll2_reset (Properties/C17_wire.v, C09_wire.v) *)
