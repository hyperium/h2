(* C16, second half: "capacity a stream does not use returns to the connection and reaches other waiting
   streams" - with the pending_capacity FIFO explicit (Model/CapQueue.v) instead of an observed visiting order.
   Statements (proofs: Proofs/CapQueueProofs.v).

   Vocabulary (Proofs/CapQueueProofs.v):
     AvNN st          every record's assigned capacity is >= 0 (part of SendFlowInv.InvD)
     additional s     min(requested - assigned, stream window - assigned)
     reached s o      try_assign_capacity gets past its early returns: not pending open/push, additional <> 0,
                      send side streaming or data buffered
     active s o       the stream is not evicted when popped: streaming or data buffered
     push_after       this try_assign_capacity call reaches `pending_capacity.push(stream)`
     fifo_step q q'   q' = skipn n q ++ pushed: streams leave at the front, enter at the back
     QInv st q        no duplicates, and nobody is queued while the connection has unassigned capacity *)
From H2V Require Import Base.Tac Model.SendFlow Model.CapQueue Ref.Accountant Proofs.SendFlowLists Proofs.SendFlowInv
  Proofs.SendFlowLedger Proofs.SendFlowRun Proofs.CapQueueProofs.
Local Open Scope Z_scope.

(* REFINEMENT: a run with the explicit queue is a SendFlow run on the same labels with the visits filled in by the
   model; every theorem about SendFlow runs (C16, C02) therefore holds for the computed visiting order *)
Theorem C16_fifo_refines :
  forall ls st q st' q' pls os,
  qrun st q ls = Some (st', q', pls, os) -> run st pls = inl (Some (st', os)).
Proof. exact qrun_refines. Qed.

(* ... and when the lock-step check accepts a recorded run, the visits the model computed are exactly the
   try_assign_capacity calls that were observed, and the queue it ends with is the observed queue *)
Theorem C16_fifo_check_sound :
  forall ls st q i fin,
  check_qrun st q i ls fin = 0%N ->
  exists st' os, qrun st q (map fst ls) = Some (st', fin, observed_labels (map fst ls), os).
Proof. exact check_qrun_sound. Qed.

(* C16_capacity_is_backed carried over, plus the queue invariant at the end of every error-free history *)
Theorem C16_fifo_capacity_is_backed :
  forall mb init ls st q pls outs,
  0 <= mb -> 0 <= init <= MAXW -> Forall label_ok pls ->
  qrun (init_state mb init) [] ls = Some (st, q, pls, outs) -> no_conn_err outs = true ->
  (exists a, acct_run (acct0 init) (all_wevs pls outs) = Some a /\
    sum_avail (c_strs st) <= a_credit a - a_sent a /\
    sum_avail (c_strs st) + c_avail st = c_win st /\
    forall s, In s (c_strs st) ->
      0 <= capacity (c_maxbuf st) s <= s_avail s /\
      (s_dead s = false ->
         exists c sn, a_find (s_id s) (a_streams a) = Some (c, sn) /\ s_avail s <= Z.max 0 (c - sn))) /\
  NoDup q /\ (c_avail st <= 0 \/ q = []).
Proof.
  intros mb init ls st q pls outs Hm Hi Hls E Hno. split.
  - eapply C16_capacity_is_backed; eauto. eapply qrun_refines; eauto.
  - destruct (qrun_inv ls 0 _ _ _ _ _ _ ltac:(lia) (init_inv mb init Hm Hi) Hls (QInv_nil _) E) as ((A & B) & _).
    split; [assumption|]. destruct (Z_lt_le_dec 0 (c_avail st)); [right; auto|left; assumption].
Qed.

(* QUEUE INVARIANT, one label from any state that satisfies the SendFlow invariant (also after a connection error):
   no duplicates, nobody queued while unassigned connection capacity exists, FIFO discipline *)
Theorem C16_fifo_queue_invariant :
  forall d st q l ob st' q' outs vs,
  0 <= d -> InvD d st -> label_ok l -> QInv st q -> qstep st q l ob = QOk st' q' outs vs ->
  QInv st' q' /\ fifo_step q q' /\ exists d', d <= d' /\ InvD d' st'.
Proof. exact qstep_inv. Qed.

(* ... over whole runs, Send::clear_queues included *)
Theorem C16_fifo_queue_invariant_run :
  forall ls d st q st' q' pls os,
  0 <= d -> InvD d st -> Forall label_ok pls -> QInv st q ->
  qrun st q ls = Some (st', q', pls, os) ->
  QInv st' q' /\ exists d', d <= d' /\ InvD d' st'.
Proof. exact qrun_inv. Qed.

(* MEANING OF AN ENTRY, at the one place where entries are made: try_assign_capacity queues the stream iff after
   the assignment it may send, still wants more than it has, and its own window has room - only connection
   capacity is missing - and then the connection has none left.  (The converse over time does NOT hold: see
   C16_fifo_stale_entry_refuted.) *)
Theorem C16_fifo_queued_iff_waiting :
  forall st sid o s st' outs,
  AvNN st -> find_s sid (c_strs st) = Some s -> try_assign st sid o = Ok st' outs ->
  exists s1, find_s sid (c_strs st') = Some s1 /\
    (push_after st sid o = true <->
       o_pending_open o = false /\ (o_streaming o = true \/ s_buf s1 <> 0) /\
       s_avail s1 < s_req s1 /\ s_avail s1 < as_size (s_win s1)) /\
    (push_after st sid o = true -> c_avail st' <= 0).
Proof. exact queued_iff_waiting. Qed.

(* every label changes the queue by pushes at the back only, or by pushes followed by ONE call of
   assign_connection_capacity from an entry state with AvNN: the three theorems below apply to every call made
   from a reachable state *)
Theorem C16_fifo_every_label_via_call :
  forall d st q l ob, 0 <= d -> InvD d st -> label_ok l -> via_call ob q (qstep st q l ob).
Proof. intros d st q l ob _ HI Hl. exact (via_call_of_via _ _ _ _ (qstep_via d st q l ob HI Hl)). Qed.

(* NO OVERTAKING inside one call that hands n bytes back (lowered reservation, reset, end of stream, handle drop,
   SETTINGS decrease, WINDOW_UPDATE on stream 0): the head that still wants capacity receives
   min(unassigned, requested - assigned, stream window - assigned) first; a stream further back receives something
   only if everything in front of it has left the queue *)
Theorem C16_fifo_no_overtaking :
  forall st q n ob st' q' outs vs,
  q_assign_conn st q n ob = QOk st' q' outs vs -> AvNN st -> NoDup q ->
  (forall h t s o, q = h :: t -> 0 < c_avail st + n ->
     find_s h (c_strs st) = Some s -> find_ob h ob = Some o -> active s o = true -> reached s o = true ->
     exists s', find_s h (c_strs st') = Some s' /\
       s_avail s' = s_avail s + Z.min (c_avail st + n) (Z.min (s_req s - s_avail s) (as_size (s_win s) - s_avail s))) /\
  (forall pre k post, q = pre ++ k :: post -> find_s k (c_strs st') <> find_s k (c_strs st) ->
     forall i, In i pre -> ~ In i q').
Proof. exact assign_conn_fifo. Qed.

(* RETURNED CAPACITY REACHES THE WAITERS: after the call the connection has no unassigned capacity left or nobody is
   queued; and whoever left the queue no longer waits for connection capacity (evicted because it cannot send,
   pending open, wants no more, or blocked by its OWN stream window) *)
Theorem C16_returned_capacity_reaches_waiters :
  forall st q n ob st' q' outs vs,
  q_assign_conn st q n ob = QOk st' q' outs vs -> AvNN st -> NoDup q ->
  (c_avail st' <= 0 \/ q' = []) /\
  (forall k o s', In k q -> ~ In k q' -> find_ob k ob = Some o -> find_s k (c_strs st') = Some s' ->
     active s' o = false \/ o_pending_open o = true \/ ~ (s_avail s' < s_req s' /\ s_avail s' < as_size (s_win s'))).
Proof.
  intros st q n ob st' q' outs vs E HA Hn. apply q_assign_conn_call in E; [|exact HA|exact Hn].
  split; [exact (call_exit _ _ _ _ _ E)|exact (call_leavers _ _ _ _ _ E)].
Qed.

(* NO STARVATION UNDER RETURNS (bounded bypass): a call with capacity to hand out pops m >= 1 streams from the front;
   a waiting stream at position |pre| is among them, or moves up by exactly m places, untouched; the only stream
   that can be appended behind it is one of the popped ones, partly served with the last of the capacity.  So it is
   visited after at most |pre| + 1 such calls.  (Across labels the position never grows: fifo_step in
   C16_fifo_queue_invariant.) *)
Theorem C16_no_starvation_under_returns :
  forall st q n ob st' q' outs vs pre k post,
  q_assign_conn st q n ob = QOk st' q' outs vs -> AvNN st -> NoDup q ->
  0 < c_avail st + n -> q = pre ++ k :: post ->
  exists m pushed, (1 <= m)%nat /\ q' = skipn m q ++ pushed /\ (length pushed <= 1)%nat /\
    (forall x, In x pushed -> In x (firstn m q) /\ c_avail st' <= 0) /\
    ((m <= length pre)%nat ->
       q' = skipn m pre ++ k :: post ++ pushed /\ find_s k (c_strs st') = find_s k (c_strs st)).
Proof. exact assign_conn_progress. Qed.

(* the fuel of the model's loop is never exhausted (the loop of the code terminates: every iteration pops, and a
   push uses up the connection's capacity) *)
Theorem C16_fifo_loop_terminates :
  forall st q inc ob, AvNN st -> NoDup q -> q_assign_conn st q inc ob <> QStuck 50.
Proof.
  intros st q inc ob HA Hn. unfold q_assign_conn. destruct (negb (in_i32 (c_avail st + inc))); [discriminate|].
  apply q_loop_fuel; [apply AvNN_set_cavail; assumption|left; lia].
Qed.

(* REFUTED stronger reading: strict FIFO across calls.  A partly served head is re-queued at the BACK, so the next
   return reaches the streams behind it first (round-robin among the waiting streams). *)
Theorem C16_fifo_strict_order_refuted : ~ strict_fifo_across_calls.
Proof. exact strict_fifo_across_calls_refuted. Qed.

(* REFUTED stronger reading: a queued stream still wants capacity (stale entries exist; they are dropped at the next
   visit) *)
Theorem C16_fifo_stale_entry_refuted : ~ queued_implies_wants.
Proof. exact queued_implies_wants_refuted. Qed.

(* non-vacuity: three streams compete, a lowered reservation returns capacity, the partly served head is re-queued at
   the back; and an instance satisfying the hypotheses of the three call theorems *)
Theorem C16_fifo_demo :
  match qrun (init_state 409600 65535) [] demo with
  | Some (st, q, pls, _) =>
      q = [2%N] /\ avail_of st 1 = Some 65335 /\ avail_of st 2 = Some 190 /\ avail_of st 3 = Some 10 /\ c_avail st = 0 /\
      map visits_of (skipn 6 pls) = [[mkV 2 oS]; [mkV 3 oS; mkV 2 oS]]
  | None => False
  end.
Proof. exact demo_lowered_reservation_requeues_head. Qed.

Theorem C16_fifo_nonvacuous :
  AvNN demo_st /\ NoDup [2%N; 3%N] /\ 0 < c_avail demo_st + 100 /\
  [2%N; 3%N] = [2%N] ++ 3%N :: [] /\
  (exists s, find_s 2 (c_strs demo_st) = Some s /\ active s oS = true /\ reached s oS = true) /\
  exists st' outs vs, q_assign_conn demo_st [2%N; 3%N] 100 demo_ob = QOk st' [3%N; 2%N] outs vs /\
    avail_of st' 2 = Some 100 /\ avail_of st' 3 = Some 0 /\ c_avail st' = 0.
Proof. exact assign_conn_nonvacuous. Qed.
