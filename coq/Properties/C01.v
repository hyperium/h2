(* C01 (end-to-end message fidelity under any fragmentation and schedule): statements; proofs in Proofs/DataPathProofs.v.
   Model: Model/DataPath.v (prioritize.rs queue/split/reclaim, the codec's two DATA slots, recv.rs event queue and polls).
   `flat` turns a frame sequence into its atom stream (octets, heads, promises, END_STREAM), so one equation says "nothing
   lost, duplicated, reordered, END_STREAM exactly where it was submitted" for every way of cutting DATA frames. *)
From H2V Require Import Base.Tac Base.Bytes Model.StreamState Model.DataPath Proofs.DataPathProofs.
Local Open Scope N_scope.

(* For ALL label sequences (submissions, scheduler choices, max_frame_len, window values at each pop,
   flush completions, resets), at every point of the run and for every stream:
   handed-to-codec ++ remainder-inside-codec ++ still-queued = submitted (unless the queue was cleared);
   always a prefix; END_STREAM only together with the last submitted atom, and at most once. *)
Theorem C01_send_split_preserves : forall chain ls st os sid,
  run (init_state chain) ls = ROk st os ->
  (cleared sid ls = false ->
     flat (handled sid os) ++ flat (inflight_of sid st) ++ flat (queue_of sid st) = flat (submitted sid ls)) /\
  (exists tail, flat (handled sid os) ++ tail = flat (submitted sid ls)) /\
  (In AEos (flat (handled sid os)) -> flat (handled sid os) = flat (submitted sid ls)) /\
  (forall pre post, flat (handled sid os) = pre ++ AEos :: post -> noeos pre /\ post = []).
Proof. exact send_split_preserves. Qed.

(* the octet reading of it: concat(payloads sent) ++ concat(still held) = concat(payloads submitted) *)
Theorem C01_send_bytes_preserved : forall chain ls st os sid,
  run (init_state chain) ls = ROk st os ->
  (cleared sid ls = false ->
     payloads (sent sid os) ++ payloads (inflight_of sid st) ++ payloads (queue_of sid st)
     = payloads (submitted sid ls)) /\
  (exists tail, payloads (sent sid os) ++ tail = payloads (submitted sid ls)).
Proof. exact send_bytes_preserved. Qed.

(* no assert / panic of the modelled code fires (in_flight_data_frame discipline, buffered_send_data
   underflow, "wasn't expecting a frame to reclaim", dangling store key), for all label sequences *)
Theorem C01_datapath_no_assert : forall chain ls k n, run (init_state chain) ls <> RFail k (Panic n).
Proof. intros chain ls k n R. pose proof (run_spec ls _ _ _ _ (inv_init chain)) as H. rewrite R in H. exact (H n eq_refl). Qed.

(* Wire.  Interface needed from the frame codec (C12) and HPACK (C10/C11), as an argument, not an axiom:
   `codec_sync c R` = decode after encode is the identity whatever octets follow, a strict prefix of an
   encoding is "need more", no frame from no octets, and the two contexts stay related by R.
   Then for EVERY prefix w of the sender's octet stream (C12_write_prefix: what the transport has seen
   is such a prefix, for all partial-write patterns; C12_read_chunking: the reader's result does not
   depend on how w is cut into reads) the reader has produced a prefix of the frames in order. *)
Theorem C01_wire_prefix : forall (F ES DS : Type) (c : wcodec F ES DS) (R : ES -> DS -> Prop),
  codec_sync c R ->
  forall fs es ds w tail fuel,
  R es ds -> w ++ tail = enc_all c es fs -> (length fs < fuel)%nat ->
  exists fs1 fs2, fs = fs1 ++ fs2 /\ dec_all c fuel ds w = fs1.
Proof. exact @wire_prefix. Qed.

(* composition with the send side: what the receiver's frame sequence carries for stream sid is a prefix
   of what was submitted on sid (octets: always; all atoms: when no promise was dropped on sid) *)
Theorem C01_wire_roundtrip : forall (ES DS : Type) (c : wcodec (N * sframe) ES DS) (R : ES -> DS -> Prop),
  codec_sync c R ->
  forall chain ls st os es ds w tail sid,
  run (init_state chain) ls = ROk st os ->
  R es ds -> w ++ tail = enc_all c es (wire_frames os) ->
  let rx := dec_all c (S (length (wire_frames os))) ds w in
  (exists later, rx ++ later = wire_frames os) /\
  (exists more, payloads (frames_of sid rx) ++ more = payloads (submitted sid ls)) /\
  (no_drop sid os -> exists more, flat (frames_of sid rx) ++ more = flat (submitted sid ls)).
Proof. exact @wire_roundtrip. Qed.

Theorem C01_wire_interface_inhabited : codec_sync toy_codec (fun _ _ => True).
Proof. exact toy_sync. Qed.

(* Receive API: every event that arrived on a stream leaves its queue exactly once, in arrival order,
   either delivered or - only on the application's own request (handles dropped; poll_response before
   the interim heads were taken) - discarded *)
Theorem C01_delivery_exactly_once : forall ls st os sid,
  rrun [] ls = RROk st os -> taken sid os ++ rqueue_of sid st = pushed sid ls.
Proof. exact recv_exactly_once. Qed.

Theorem C01_delivery_in_order : forall ls st os sid,
  rrun [] ls = RROk st os -> existsb (dropped1 sid) os = false ->
  delivered sid os ++ rqueue_of sid st = pushed sid ls.
Proof. intros ls st os sid R D. rewrite (delivered_taken _ _ D). apply recv_exactly_once, R. Qed.

(* clean end of the body is reported only with no DATA at the head of the queue; on a drained queue only
   if the stream state says END_STREAM was received and no error, and then everything that arrived
   has been handed out *)
Theorem C01_clean_end : forall ls st os sid s st',
  rrun [] ls = RROk st os ->
  rstep st (RPollData sid s) = ROkR st' [RNone sid] ->
  (forall p q, rqueue_of sid st <> EData p :: q) /\
  (rqueue_of sid st = [] ->
     ensure_recv_open s = RBool false /\ (is_recv_end_stream s = true \/ s = ReservedLocal) /\
     taken sid os = pushed sid ls).
Proof. exact recv_clean_end. Qed.

Theorem C01_trailers_clean_end : forall st sid s st',
  rstep st (RPollTrailers sid s) = ROkR st' [RNone sid] ->
  rqueue_of sid st = [] /\ ensure_recv_open s = RBool false.
Proof. exact recv_trailers_clean_end. Qed.

(* a stream whose state records an error reports it once the queue is drained: never a clean end *)
Theorem C01_error_never_clean : forall st sid r s e,
  find_r sid st = Some r -> rs_q r = [] -> ensure_recv_open s = RProtoErr e ->
  rstep st (RPollData sid s) = ROkR st [RErr sid] /\ rstep st (RPollTrailers sid s) = ROkR st [RErr sid].
Proof. exact recv_error_never_clean. Qed.

(* with the state machine of C07/C17: RST_STREAM before the peer's END_STREAM => error, after => clean *)
Theorem C01_reset_never_clean : forall st sid r s rsid reason q,
  find_r sid st = Some r -> rs_q r = [] ->
  is_closed s = false \/ q = true ->
  let s' := fst (recv_reset rsid reason q s) in
  (is_recv_end_stream s = false ->
     rstep st (RPollData sid s') = ROkR st [RErr sid] /\ rstep st (RPollTrailers sid s') = ROkR st [RErr sid]) /\
  (is_recv_end_stream s = true ->
     rstep st (RPollData sid s') = ROkR st [RNone sid] /\ is_recv_end_stream s' = true).
Proof. exact recv_reset_never_clean. Qed.

(* non-vacuity: interleaved streams with a split forced by a 1-byte window; a partly written frame
   reclaimed in front of the trailers; no overtaking while the remainder is inside the codec; a reset in
   mid-frame; receive order with an interleaved stream; a reset stream delivering a prefix then the error *)
Theorem C01_nonvacuous_interleaved_split :
  exists st os,
    run (init_state 256)
      [LNew 1; LNew 3; LQueue 1 hd0; LSendData 1 true [10;11;12;13;14] true; LQueue 3 hd0;
       LSendData 3 true [20;21;22] false;
       LPop 1 16384 5 65535; LPop 3 16384 3 65535; LPop 1 16384 1 65535; LPop 3 16384 3 65535;
       LPop 1 16384 4 65534] = ROk st os /\
    wire_frames os = [(1, hd0); (3, hd0); (1, FData [10] false); (3, FData [20;21;22] false);
                      (1, FData [11;12;13;14] true)] /\
    flat (sent 1 os) = flat (submitted 1 [LQueue 1 hd0; LSendData 1 true [10;11;12;13;14] true]) /\
    d_inflight st = IfData 1 /\ queue_of 1 st = [].
Proof. exact ex_interleaved_split. Qed.

Theorem C01_nonvacuous_partial_write_reclaim :
  exists st os,
    run (init_state 2)
      [LNew 1; LQueue 1 hd0; LSendData 1 true [1;2;3;4;5;6;7] false; LQueue 1 (FHeaders HkTrailers [] true);
       LPop 1 3 100 100; LPop 1 3 100 100; LFlushed; LReclaim] = ROk st os /\
    wire_frames os = [(1, hd0); (1, FData [1;2;3] false)] /\
    queue_of 1 st = [FData [4;5;6;7] false; FHeaders HkTrailers [] true] /\
    d_inflight st = IfNothing.
Proof. exact ex_partial_write_reclaim. Qed.

Theorem C01_nonvacuous_no_overtaking :
  run (init_state 2)
    [LNew 1; LQueue 1 hd0; LSendData 1 true [1;2;3;4;5;6;7] false; LQueue 1 (FHeaders HkTrailers [] true);
     LPop 1 3 100 100; LPop 1 3 100 100; LPop 1 3 100 100] = RFail 6 (Stuck 13).
Proof. exact ex_no_overtaking. Qed.

Theorem C01_nonvacuous_reset_mid_frame :
  exists st os,
    run (init_state 2)
      [LNew 1; LQueue 1 hd0; LSendData 1 true [1;2;3;4;5;6;7] true;
       LPop 1 3 100 100; LPop 1 3 100 100; LClear 1; LQueue 1 (FReset 8); LFlushed; LPop 1 3 0 0] = ROk st os /\
    wire_frames os = [(1, hd0); (1, FData [1;2;3] false); (1, FReset 8)] /\
    d_inflight st = IfNothing /\ ~ In AEos (flat (sent 1 os)).
Proof. exact ex_reset_mid_frame. Qed.

Theorem C01_nonvacuous_recv_in_order :
  exists st os,
    rrun [] [RNew 1; RNew 3; RRecvHeaders 1 false [([58;115], [50])]; RRecvData 1 [1;2] false;
             RRecvData 3 [9] false; RRecvData 1 [] false; RRecvData 1 [3] false; RRecvTrailers 1 [];
             RPollResponse 1 (Open Streaming Streaming); RPollData 1 (Closed EndStream);
             RPollData 3 (Open Streaming Streaming); RPollData 1 (Closed EndStream);
             RPollData 1 (Closed EndStream); RIsEndStream 1 (Closed EndStream);
             RPollTrailers 1 (Closed EndStream);
             RIsEndStream 1 (Closed EndStream); RPollData 1 (Closed EndStream); RPollTrailers 1 (Closed EndStream)]
      = RROk st os /\
    delivered 1 os = [EHead [([58;115], [50])]; EData [1;2]; EData [3]; ETrailers []] /\
    os = [RDeliver 1 (EHead [([58;115], [50])]); RDeliver 1 (EData [1;2]); RDeliver 3 (EData [9]);
          RDeliver 1 (EData [3]); RNone 1; RBoolean 1 false; RDeliver 1 (ETrailers []);
          RBoolean 1 true; RNone 1; RNone 1].
Proof. exact ex_recv_in_order. Qed.

Theorem C01_nonvacuous_recv_reset_prefix :
  let s' := fst (recv_reset 1 8 false (Open Streaming Streaming)) in
  exists st os,
    rrun [] [RNew 1; RRecvHeaders 1 false []; RRecvData 1 [1;2] false;
             RPollResponse 1 s'; RPollData 1 s'; RPollData 1 s'; RPollTrailers 1 s'] = RROk st os /\
    os = [RDeliver 1 (EHead []); RDeliver 1 (EData [1;2]); RErr 1; RErr 1].
Proof. exact ex_recv_reset_prefix. Qed.
