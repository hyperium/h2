(* C09 at the dispatch layer (which State method the callers invoke for which received frame, and how they react to
   its verdict): statements; the proofs are in Proofs/DispatchRecv.v, DispatchTol.v,
   DispatchErr.v, DispatchLenient.v.
   Model: Model/Dispatch.v (tied to streams.rs / recv.rs / send.rs / prioritize.rs by the lock-step of
   lib/props/parts/dispatch.py); reference: Ref/Rfc9113Stream.v (receiver_must_for, violation_code).
   Every theorem is about ONE step from an ARBITRARY state of the store, hence about every history; the observed
   inputs (admission, flow-control and header verdicts, quotas) are universally quantified.

   pview: the state of a stream as the peer can know it - idle while our HEADERS / PUSH_PROMISE for it are still
   queued (is_pending_open of a client, is_pending_push), reserved (local) while a pushed response waits for a slot,
   else the state of the record.
   wf_shape: the record shapes no history produces (checked at every label by the lock-step).
   lenient: the classes where h2 is more lenient than RFC 9113 5.1 demands (a stream error or silence instead of
   GOAWAY; after repair 28d67d9 none of them hands anything to the application) (see the C09_wire_lenient theorems). *)
From H2V Require Import Base.Tac Base.Bytes Model.StreamState Ref.Rfc9113Stream Proofs.StreamStateProofs
  Model.Dispatch Proofs.DispatchRecv Proofs.DispatchTol Proofs.DispatchErr Proofs.DispatchLenient.
Local Open Scope N_scope.

(* a received frame changes at most the record of its own stream (for a PUSH_PROMISE: the promised one) and never puts
   a frame on the wire itself: other streams keep working
   (same_or_failed: unchanged, or - only when the section discards that stream's queue and the queue holds a PUSH_PROMISE
   that was never written - the promised stream is failed with it, repair cc6ac6c) *)
Theorem C09_wire_other_streams_untouched :
  forall st l sid t st' outs,
  recv_frame l = Some (sid, t) -> step st l = Ok st' outs ->
  (forall k, k <> touched st l -> same_or_failed st st' k) /\ has_emit outs = false.
Proof. intros st l sid t st' outs Hl Hs. destruct (recv_step_effect _ _ _ _ _ _ Hl Hs) as (H1 & H2 & _). auto. Qed.

(* where RFC 9113 5.1 demands a connection error for a frame on a stream the endpoint has a record of: the result is
   a connection error with a non-zero code, nothing is handed to the application, the store is unchanged *)
Theorem C09_wire_conn_error_required_except_known :
  forall st l sid t k r st' outs,
  recv_frame l = Some (sid, t) -> iget st sid = Some (k, r) -> c_recv_max st <? sid = false ->
  wf_shape (c_role st) sid r = true ->
  receiver_must_for (is_local_init (c_role st) sid) (fst (pview (c_role st) r)) (snd (pview (c_role st) r)) t = conn_error ->
  lenient (c_role st) r t = false ->
  step st l = Ok st' outs ->
  is_conn_error (result_of outs) = true /\ has_app outs = false /\ st' = st.
Proof. exact recv_conn_error_required. Qed.

(* a frame other than PRIORITY (and other than HEADERS of the peer's own) on an identifier that was never used *)
Theorem C09_wire_idle_is_conn_error :
  forall st l sid t st' outs,
  recv_frame l = Some (sid, t) -> iget st sid = None -> not_idle st sid = false ->
  c_recv_max st <? sid = false -> t <> PRIORITY ->
  (t = HEADERS -> is_local_init (c_role st) sid = true) ->
  step st l = Ok st' outs ->
  is_conn_error (result_of outs) = true /\ has_app outs = false /\ st' = st.
Proof. exact recv_idle_conn_error. Qed.

(* whatever is refused - by an error returned to the connection or by a reset inside the section - is not handed to
   the application *)
Theorem C09_wire_refused_not_surfaced :
  forall st l sid t st' outs,
  recv_frame l = Some (sid, t) -> step st l = Ok st' outs ->
  blames (result_of outs) = true \/ refused_in outs = true ->
  has_app outs = false.
Proof. intros st l sid t st' outs Hl Hs. exact (proj1 (proj2 (proj2 (recv_step_effect _ _ _ _ _ _ Hl Hs)))). Qed.

(* a stream error handled inside the section leaves the record reset and queues a RST_STREAM, unless the stream had
   been reset before or has nothing left to close *)
Theorem C09_wire_stream_error_resets :
  forall st l sid t st' outs,
  recv_frame l = Some (sid, t) -> step st l = Ok st' outs ->
  refused_in outs = true -> result_of outs = ROk ->
  exists r', kget st' (touched st l) = Some r' /\ is_reset (s_state r') = true /\
    (queued_reset outs <> None \/
     exists r, kget st (touched st l) = Some r /\
               (is_reset (s_state r) = true \/
                (s_q r = [] /\ s_infl r = None /\ (is_closed (s_state r) = true \/ frame_ends l = true)))).
Proof. exact recv_stream_error_resets. Qed.

(* a stream error handed up to the connection is answered by Inner::send_reset: RST_STREAM with that code on that
   stream (or GOAWAY ENHANCE_YOUR_CALM when the reset quota is exhausted) *)
Theorem C09_wire_poll2_reset :
  forall st sid code quota can nk st' outs,
  step st (LPoll2Reset sid code quota can nk) = Ok st' outs ->
  (quota = false /\ result_of outs = RErr too_many_internal_resets /\ queued_reset outs = None)
  \/ (quota = true /\ result_of outs = ROk /\
      exists k r', iget st' sid = Some (k, r') /\ is_reset (s_state r') = true /\
        (queued_reset outs = Some (sid, code) \/
         exists r, iget st sid = Some (k, r) /\ (is_reset (s_state r) = true \/ closed_full r = true))).
Proof. exact poll2_reset_resets. Qed.

(* tolerance: a frame RFC 9113 5.1 permits (accept) or orders to be tolerated (the documented races: frames on a stream
   the endpoint has reset and still remembers, WINDOW_UPDATE / RST_STREAM on closed or reserved streams, frames for a
   pushed stream waiting for a concurrency slot), at a legal place of the peer's message, with observed verdicts that
   are not the peer's fault: no connection error, no stream error with a code that accuses the peer *)
Theorem C09_wire_tolerated :
  forall st l sid t k r st' outs,
  recv_frame l = Some (sid, t) -> iget st sid = Some (k, r) -> (sid =? 0) = false ->
  wf_shape (c_role st) sid r = true ->
  tolerable (receiver_must_for (is_local_init (c_role st) sid) (fst (pview (c_role st) r)) (snd (pview (c_role st) r)) t) = true ->
  obs_fine l = true -> msg_fine l (s_state r) = true -> conn_fine st l = true ->
  step st l = Ok st' outs ->
  penalised outs = false.
Proof. exact recv_tolerated. Qed.

(* WINDOW_UPDATE / RST_STREAM / PRIORITY on a stream that is closed and forgotten: ignored *)
Theorem C09_wire_forgotten_tolerated :
  forall st l sid t st' outs,
  recv_frame l = Some (sid, t) -> iget st sid = None -> (sid =? 0) = false ->
  (t = WINDOW_UPDATE \/ t = RST_STREAM \/ t = PRIORITY) -> not_idle st sid = true \/ t = PRIORITY ->
  obs_fine l = true ->
  step st l = Ok st' outs ->
  penalised outs = false /\ st' = st /\ has_app outs = false.
Proof. exact recv_unknown_tolerated. Qed.

(* a new request of the peer *)
Theorem C09_wire_new_stream_tolerated :
  forall st sid eos info o nk st' outs,
  iget st sid = None -> is_server (c_role st) = true -> is_client_init sid = true ->
  (match c_recv_next st with Some n => n <=? sid | None => false end) = true ->
  obs_fine (LRecvHeaders sid eos info o nk) = true ->
  step st (LRecvHeaders sid eos info o nk) = Ok st' outs ->
  penalised outs = false.
Proof. exact recv_new_stream_tolerated. Qed.

(* the classes of `lenient` are real: closed witnesses, each satisfying every other hypothesis of
   C09_wire_conn_error_required_except_known (Proofs/DispatchLenient.v; reproduced on the real crate, replays
   corpus/dispatch/lenient_*.json) *)
Theorem C09_wire_conn_error_required_refuted :
  ~ (forall st l sid t k r st' outs,
     recv_frame l = Some (sid, t) -> iget st sid = Some (k, r) -> c_recv_max st <? sid = false ->
     wf_shape (c_role st) sid r = true ->
     receiver_must_for (is_local_init (c_role st) sid) (fst (pview (c_role st) r)) (snd (pview (c_role st) r)) t = conn_error ->
     step st l = Ok st' outs ->
     is_conn_error (result_of outs) = true).
Proof.
  intros H.
  specialize (H st_l5 (LRecvWindowUpdate 2 wobs_ok) 2 WINDOW_UPDATE 2 (mkS 2 ReservedRemote false false false [] None)
                st_l5 [ORes ROk] eq_refl eq_refl eq_refl eq_refl eq_refl eq_refl).
  vm_compute in H. discriminate.
Qed.

Theorem C09_wire_lenient_witnesses :
  (demands_conn_error st_l1 2 RST_STREAM = true /\ reacts st_l1 (LRecvReset 2 8 robs_ok) = false /\
   demands_conn_error st_l1 2 WINDOW_UPDATE = true /\ reacts st_l1 (LRecvWindowUpdate 2 wobs_ok) = false) /\
  (demands_conn_error st_l4 2 HEADERS = true /\ reacts st_l4 (LRecvHeaders 2 false false hobs_ok 9) = false).
Proof. exact (conj lenient_promise_unsent lenient_headers_on_reserved_local). Qed.

(* repaired by 28d67d9 (found with this model): a PUSH_PROMISE on a request not sent yet, on a request reset before it was
   sent, or on a stream that is itself pushed is now a connection error (it used to be accepted) *)
Theorem C09_wire_push_only_on_a_seen_request :
  demands_conn_error st_l3 1 PUSH_PROMISE = true /\ reacts st_l3 (LRecvPushPromise 1 2 pobs_ok 9) = true /\
  demands_conn_error st_l2 1 PUSH_PROMISE = true /\ reacts st_l2 (LRecvPushPromise 1 2 pobs_ok 9) = true /\
  demands_conn_error st_l5 2 PUSH_PROMISE = true /\ reacts st_l5 (LRecvPushPromise 2 4 pobs_ok 9) = true.
Proof. exact push_only_on_a_seen_request. Qed.

(* the repaired defect 60d7633 (found with this model): the refusal of a PUSH_PROMISE on a locally reset parent named
   an identifier nobody had checked *)
Theorem C09_wire_push_refusal_fix_needed :
  (match old_refusal_arm st_l6 7 with
   | Ok st1 outs =>
     result_of outs = RErr (EReset 7 CANCEL Library) /\ not_idle st1 7 = false /\ is_local_init (c_role st1) 7 = true /\
     match step st1 (LPoll2Reset 7 CANCEL true true 9) with
     | Ok st2 outs2 => outs_queued outs2 = [(7, 3, false, false, CANCEL)] /\ c_send_next st2 = Some 9
     | _ => False
     end
   | _ => False
   end) /\
  (match step st_l6 (LRecvPushPromise 1 7 pobs_ok 9) with
   | Ok st1 outs => is_conn_error (result_of outs) = true /\ st1 = st_l6
   | _ => False
   end).
Proof. exact push_refusal_fix_needed. Qed.
