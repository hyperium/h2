(* Property C10 composed with C11: h2's HPACK ENCODER model feeding h2's HPACK DECODER model (Huffman
   decoder model inside).  Statements; the proofs are in Proofs/HpackSyncProofs.v, closed under the global
   context.  Side conditions, exactly: [history_ok] (C10: names and values are octet strings shorter than
   2^24, no block starts with a nameless item) and [history_valid] (C11: every submitted field passes the
   validation h2's decoder applies, Header::new).  No known-class hypothesis. *)
From Coq Require Import String.
From H2V Require Import Base.Tac Base.Bytes Model.Huffman Model.HpackInt Ref.Rfc7541Block Model.HpackEnc Model.HpackDec.
From H2V Require Import Proofs.HpackIntProofs Proofs.HpackEncProofs Proofs.HpackDecProofs Proofs.HpackSyncProofs.
Local Open Scope N_scope.

(* whatever the encoder model emits for octet strings is a string of octets, in EVERY encoder state *)
Theorem C10_sync_encoder_octets : forall st fl st2 out,
  forallb field_ok fl = true -> enc_encode st fl = EOk (st2, out) -> octets out.
Proof. exact enc_encode_octets. Qed.

(* both ends start synchronised *)
Theorem C10_sync_init : forall m0, hsync (enc_new m0) (decoder_new (N.min m0 4096)).
Proof. exact hsync_init. Qed.

(* one block: from synchronised ends ([hsync]: both invariants, equal tables, maximum within the decoder's
   ceiling), after any SETTINGS values [ups] told to both ends, the encoder's block is accepted by the
   decoder with exactly the submitted fields, the ends are synchronised again, the block satisfies RFC 7541
   including clause 4.2, and every fragmentation of it gives the same result *)
Theorem C10_sync_block : forall st d ups fl,
  hsync st d -> block_ok fl = true -> fields_valid (submitted fl) = true ->
  exists st2 out,
    enc_encode (fold_left enc_update_max_size ups st) fl = EOk (st2, out) /\
    let d1 := fold_left queue_size_update ups d in
    r_verdict (decode huff_decode_opt d1 out) = VOk /\
    r_fields (decode huff_decode_opt d1 out) = submitted fl /\
    hsync st2 (r_dec (decode huff_decode_opt d1 out)) /\
    rfc_block_decodes huff_decode_opt h2_int_limit (abs (take_queued d1)) out (submitted fl)
                      (abs (r_dec (decode huff_decode_opt d1 out))) /\
    (forall frags, frags <> [] -> concat frags = out ->
       same_result (decode_chunks huff_decode_opt d1 frags) (decode huff_decode_opt d1 out)).
Proof. exact block_both_ends. Qed.

(* the known classes of C11 do not occur on encoder output: no size update after a field (KF-C11-1), and
   the conclusions of C11's two `_except_known` theorems hold without `~ required_update_pending`
   (KF-C11-3), because the encoder signals every reduction at the start of the block *)
Theorem C10_sync_outside_known_classes : forall st d ups fl,
  hsync st d -> block_ok fl = true -> fields_valid (submitted fl) = true ->
  exists st2 out,
    enc_encode (fold_left enc_update_max_size ups st) fl = EOk (st2, out) /\
    let d1 := fold_left queue_size_update ups d in
    let d2 := r_dec (decode huff_decode_opt d1 out) in
    ~ size_update_after_field huff_decode_opt d1 out /\
    rfc_block_decodes huff_decode_opt h2_int_limit (abs (take_queued d1)) out
                      (r_fields (decode huff_decode_opt d1 out)) (abs d2) /\
    (t_size (d_table d2) <= t_max (d_table d2) /\ t_max (d_table d2) <= d_last_max d2).
Proof. exact enc_blocks_outside_known_classes. Qed.

(* every history, every fragmentation *)
Theorem C10_sync_history : forall (m0 : N) (h : history),
  history_ok h = true -> history_valid h = true ->
  exists st outs,
    enc_run (enc_new m0) h = EOk (st, outs) /\
    forall fragss, fragmentation fragss outs ->
      exists d',
        dec_h2_run (decoder_new (N.min m0 4096)) h fragss = Some (map (fun b => submitted (snd b)) h, d') /\
        t_entries (d_table d') = et_entries (e_table st) /\
        t_size (d_table d') = et_size (e_table st) /\
        t_max (d_table d') = et_max (e_table st) /\
        t_size (d_table d') <= t_max (d_table d') /\ t_max (d_table d') <= d_last_max d'.
Proof.
  intros m0 h Hok Hval.
  destruct (run_both_ends h _ _ (hsync_init m0) Hok Hval) as (st & outs & Hrun & Hd).
  exists st, outs. split; [exact Hrun|]. intros fragss Hfr.
  destruct (Hd fragss Hfr) as (d' & Hdr & Hs). exists d'. split; [exact Hdr|exact (hsync_sizes _ _ Hs)].
Qed.

Theorem C10_sync_nonvacuous :
  history_ok demo_history = true /\ history_valid demo_history = true /\
  match enc_run (enc_new 4096) demo_history with
  | EOk (st, outs) =>
    let fragss := map (fun o => map (fun b => [b]) o) outs in
    fragmentation fragss outs /\
    match dec_h2_run (decoder_new 4096) demo_history fragss with
    | Some (fss, d') => fss = map (fun b => submitted (snd b)) demo_history /\
                        t_entries (d_table d') = et_entries (e_table st)
    | None => False
    end
  | EFail _ => False
  end.
Proof. exact hpack_both_ends_nonvacuous. Qed.
