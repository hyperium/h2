(* C17 at the dispatch layer: explicit resets, last-handle drops, what leaves the queue afterwards, how the peer's
   RST_STREAM / GOAWAY / a connection error reaches the handles.  Statements; the proofs are in Proofs/DispatchReset.v.
   Model: Model/Dispatch.v (lock-step: lib/props/parts/dispatch.py); composed with the state
   machine theorems C17_state_* of Properties/StreamState.v.  One step from ANY state, all observed inputs, every
   32-bit code.
   no_push q: the queue holds no unsent PUSH_PROMISE (every stream of a client, every pushed stream); when it does, the
   promised streams are failed together with the dropped promises (repair cc6ac6c) and the statements hold for the
   stream itself up to that (C09_wire_other_streams_untouched). *)
From H2V Require Import Base.Tac Base.Bytes Model.StreamState Ref.Rfc9113Stream Proofs.StreamStateProofs
  Model.Dispatch Proofs.DispatchRecv Proofs.DispatchReset Proofs.DispatchSend.
Local Open Scope N_scope.

(* send_reset(code): nothing when the stream is reset already; no RST_STREAM when it had closed cleanly and is flushed;
   else exactly one RST_STREAM with the caller's code - queued after the HEADERS (the first queued frame) of a stream
   that is not opened yet (what was queued behind them is discarded, repair a052906), else alone, that stream's own
   queued frames discarded; no other record changes; nothing goes to the codec here *)
Theorem C17_wire_explicit_reset :
  forall st k code can st' outs r,
  kget st k = Some r -> no_push (s_q r) = true -> step st (LSendReset k code can) = Ok st' outs ->
  (forall k', k' <> k -> kget st' k' = kget st k') /\ c_ids st' = c_ids st /\ has_emit outs = false /\
  exists r', kget st' k = Some r' /\ s_id r' = s_id r /\
  (is_reset (s_state r) = true ->
     queued_all outs = [] /\ s_state r' = s_state r /\ s_q r' = s_q r /\ s_infl r' = s_infl r) /\
  (is_reset (s_state r) = false ->
     s_state r' = Closed (CError (EReset (s_id r) code User)) /\
     (closed_full r = true -> queued_all outs = [] /\ s_q r' = []) /\
     (closed_full r = false ->
        queued_all outs = [(s_id r, QReset code)] /\ s_infl r' = None /\
        s_q r' = (if s_popen r then firstn 1 (s_q r) ++ [QReset code] else [QReset code]))).
Proof. exact explicit_reset. Qed.

(* the last handle is dropped: nothing if the stream has finished; else a reset is scheduled - CANCEL, or NO_ERROR for a
   server that had completed its response while the request was still arriving - the queue is left as it is *)
Theorem C17_wire_last_drop :
  forall st k can st' outs r,
  kget st k = Some r -> step st (LDropLast k can []) = Ok st' outs ->
  outs = [] /\ (forall k', k' <> k -> kget st' k' = kget st k') /\ c_ids st' = c_ids st /\
  exists r', kget st' k = Some r' /\ s_id r' = s_id r /\ s_q r' = s_q r /\ s_infl r' = s_infl r /\
  (is_closed (s_state r) = true -> s_state r' = s_state r) /\
  (is_closed (s_state r) = false -> s_state r' = Closed (ScheduledLibraryReset (drop_reason (c_role st) (s_state r)))).
Proof. exact last_drop. Qed.

(* what then leaves the queue: queued HEADERS first, buffered DATA discarded (kept for NO_ERROR), then exactly the
   RST_STREAM with the scheduled code, after which the record is an ordinary reset *)
Theorem C17_wire_pop_scheduled :
  forall st k o st' outs r reason,
  kget st k = Some r -> no_push (s_q r) = true -> get_scheduled_reset (s_state r) = Some reason ->
  step st (LPop k o) = Ok st' outs ->
  match s_q r with
  | [] => outs = [OEmit (WFrame (s_id r) (QReset reason))] /\
          exists r', kget st' k = Some r' /\ s_state r' = Closed (CError (EReset (s_id r) reason Library)) /\ s_q r' = []
  | QData eos :: q' =>
    if reason =? NO_ERROR
    then has_app outs = false
    else outs = [OCleared (s_id r)] /\ exists r', kget st' k = Some r' /\ s_q r' = [] /\ s_state r' = s_state r
  | QPush p :: q' => outs = [] \/ outs = [OEmit (WFrame (s_id r) (QPush p))]
  | f :: q' => outs = [OEmit (WFrame (s_id r) f)] /\ exists r', kget st' k = Some r' /\ s_q r' = q' /\ s_state r' = s_state r
  end.
Proof. exact pop_scheduled. Qed.

(* exactly one: a reset record emits a RST_STREAM only if one is in its queue, and nothing puts a second one there *)
Theorem C17_wire_reset_emitted_only_if_queued :
  forall st k o st' outs r code,
  kget st k = Some r -> get_scheduled_reset (s_state r) = None ->
  step st (LPop k o) = Ok st' outs ->
  In (OEmit (WFrame (s_id r) (QReset code))) outs -> exists q', s_q r = QReset code :: q'.
Proof. exact pop_reset_only_queued. Qed.

(* is_reset: by either side, by the library, or with a reset scheduled *)
Theorem C17_wire_no_second_reset :
  forall st k r code can st' outs,
  kget st k = Some r -> is_reset (s_state r) = true ->
  step st (LSendReset k code can) = Ok st' outs -> queued_all outs = [].
Proof.
  intros st k r code can st' outs Hk Hr. cbn [step]. unfold step_send_reset, actions_send_reset, send_reset_core, res1. rewrite Hk, Hr.
  intros H; inversion H; reflexivity.
Qed.

Theorem C17_wire_drop_after_end_nothing :
  forall st k r can st' outs,
  kget st k = Some r -> is_closed (s_state r) = true ->
  step st (LDropLast k can []) = Ok st' outs -> outs = [] /\ kget st' k = Some r.
Proof.
  intros st k r can st' outs Hk Hc. cbn [step]. unfold step_drop_last, maybe_cancel. rewrite Hk, Hc. cbn [cancel_kids].
  intros H; inversion H; subst. split; auto. unfold kget; cbn. apply sget_sset_same.
Qed.

(* the peer's RST_STREAM(code), any code: the record takes exactly the state machine's recv_reset, its queue is
   discarded, and what a read / poll_reset on any handle of it is told is that state's answer *)
Theorem C17_wire_peer_reset_reaches_handles :
  forall st sid code o st' outs k r,
  iget st sid = Some (k, r) -> no_push (s_q r) = true ->
  step st (LRecvReset sid code o) = Ok st' outs -> result_of outs = ROk ->
  let s' := fst (recv_reset sid code (r_queued o) (s_state r)) in
  (exists r', kget st' k = Some r' /\ s_state r' = s' /\ s_q r' = [] /\ s_infl r' = None /\ s_id r' = s_id r) /\
  (forall k', k' <> k -> kget st' k' = kget st k') /\
  step st' (LPollRecv k) = Ok st' [OSurface (s_id r) (ensure_recv_open s')] /\
  (forall m, step st' (LPollReset k m) = Ok st' [OSurface (s_id r) (ensure_reason m s')]).
Proof. exact peer_reset_reaches_handles. Qed.

(* composed with C17_state_recv_reset_surfaces: exactly the received code, origin Remote *)
Theorem C17_wire_peer_reset_surfaces_exact :
  forall st sid code o st' outs k r,
  iget st sid = Some (k, r) -> no_push (s_q r) = true ->
  step st (LRecvReset sid code o) = Ok st' outs -> result_of outs = ROk ->
  is_closed (s_state r) = false \/ r_queued o = true ->
  (forall m, step st' (LPollReset k m) = Ok st' [OSurface (s_id r) (RReason (Some code))]) /\
  (is_recv_end_stream (s_state r) = false ->
   step st' (LPollRecv k) = Ok st' [OSurface (s_id r) (RProtoErr (EReset sid code Remote))]) /\
  (is_recv_end_stream (s_state r) = true ->
   step st' (LPollRecv k) = Ok st' [OSurface (s_id r) (RBool false)]).
Proof. exact peer_reset_surfaces_exact. Qed.

(* a connection error (our GOAWAY, an I/O failure, the error of handle_go_away) reaches every linked record (`failed`:
   the promised records failed together with a PUSH_PROMISE dropped from a parent's queue, repair cc6ac6c) *)
Theorem C17_wire_conn_error_reaches_handles :
  forall st e failed st' outs k r,
  step st (LHandleError e failed) = Ok st' outs -> kget st k = Some r -> is_linked st k = true ->
  ~ In k failed ->
  let s' := fst (handle_error e (s_state r)) in
  (exists r', kget st' k = Some r' /\ s_state r' = s' /\ s_q r' = [] /\ s_infl r' = None) /\
  c_conn_error st' = Some e /\
  step st' (LPollRecv k) = Ok st' [OSurface (s_id r) (ensure_recv_open s')] /\
  (forall m, step st' (LPollReset k m) = Ok st' [OSurface (s_id r) (ensure_reason m s')]).
Proof. exact conn_error_reaches_handles. Qed.

(* the peer's GOAWAY(last, code, debug data): every linked stream of ours above `last` fails with exactly that error,
   every other record is untouched *)
Theorem C17_wire_go_away_reaches_handles :
  forall st last code debug st' outs k r,
  step st (LRecvGoAway last code debug) = Ok st' outs -> result_of outs = ROk ->
  kget st k = Some r -> is_linked st k = true ->
  let e := EGoAway debug code Remote in
  exists r', kget st' k = Some r' /\
    (if (last <? s_id r) && is_local_init (c_role st) (s_id r)
     then s_state r' = fst (handle_error e (s_state r)) /\ s_q r' = [] /\ s_infl r' = None
     else r' = r) /\
  c_conn_error st' = Some e.
Proof. exact go_away_reaches_handles. Qed.

Theorem C17_wire_nonvacuous :
  (let st := mkC Client true true [(1, mkS 1 (Open Streaming AwaitingHeaders) true false false [QHeaders false false] None)]
                 [(1, 1)] (Some 3) (Some 2) MAX_ID MAX_ID None None in
   match step st (LSendReset 1 4294967295 true) with
   | Ok st' outs => queued_all outs = [(1, QReset 4294967295)] /\
                    match kget st' 1 with Some r' => s_q r' = [QHeaders false false; QReset 4294967295] | None => False end
   | _ => False
   end) /\
  (let st := mkC Client true true [(1, mkS 1 (HalfClosedLocal Streaming) false false false [] None)]
                 [(1, 1)] (Some 3) (Some 2) MAX_ID MAX_ID None None in
   match step st (LRecvReset 1 3735928559 (mkR false true)) with
   | Ok st' outs => step st' (LPollRecv 1) = Ok st' [OSurface 1 (RProtoErr (EReset 1 3735928559 Remote))]
   | _ => False
   end).
Proof. exact (conj ex_explicit_reset_after_headers ex_peer_reset_any_code). Qed.
