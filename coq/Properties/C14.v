(* C14 — every SETTINGS and every PING received is acknowledged exactly once, in order, also under write back-pressure;
   received settings take effect at their acknowledgement, local settings at the peer's acknowledgement; an acknowledgement
   that answers nothing is a connection error; user pings.  Statements (proofs: Proofs/ControlProofs.v; model:
   Model/Control.v, lock-stepped with /repo/src/proto/{settings,ping_pong,go_away,connection}.rs by lib/props/parts/control.py). *)
From H2V Require Import Base.Tac Base.Bytes Model.Control Proofs.ControlProofs.
Local Open Scope N_scope.

(* For ALL label sequences (any SETTINGS / PING / user-ping / shutdown / stream traffic, any codec readiness at every
   poll_ready): #SETTINGS taken = #ACKs emitted + (1 iff one is owed); the PINGs taken are, payload by payload and in order,
   the owed one followed by the answered ones; whenever a frame can be taken from the codec nothing is owed. *)
Theorem C14_ack_exactly_once :
  forall p0 ls s tr,
  crun (init p0) ls = inl (s, tr) ->
  let h := upd_trace (hist0 p0) tr in
  N.of_nat (length (hs_taken (hS_ h))) = hs_acks (hS_ h) + owedS s (hS_ h) /\
  hp_taken (hP_ h) = opt_list (p_pong s) ++ map fst (hp_answered (hP_ h)) /\
  (can_recv s = true -> s_remote s = None /\ p_pong s = None).
Proof. exact C14_ack_exactly_once. Qed.

(* the guards "no frame is taken while an acknowledgement is owed" are established by the poll2 order itself *)
Theorem C14_poll2_order :
  forall s h c1 c2 c3 c4 ae c5 s1 o1 s2 o2 s3 o3 s4 o4 s5 o5,
  InvG s h ->
  cstep s (LPollGoAway c1) = SOk s1 o1 FNext ->
  in_poll_ready s1 = true /\
  (cstep s1 (LPollPong c2) = SOk s2 o2 FNext ->
   in_poll_ready s2 = true /\ p_pong s2 = None /\
   (cstep s2 (LPollPing c3) = SOk s3 o3 FNext ->
    in_poll_ready s3 = true /\ p_pong s3 = None /\ (forall pl, p_ping s3 <> Some (pl, false)) /\
    (cstep s3 (LSettingsAck c4 ae) = SOk s4 o4 FNext ->
     in_poll_ready s4 = true /\ p_pong s4 = None /\ (forall pl, p_ping s4 <> Some (pl, false)) /\ s_remote s4 = None /\
     (cstep s4 (LSettingsLocal c5) = SOk s5 o5 FNext -> can_recv s5 = true)))).
Proof. exact poll2_order. Qed.

(* no assert!/assert_eq!/debug_assert_eq! of settings.rs / ping_pong.rs / go_away.rs / connection.rs (and Recv::go_away) fires *)
Theorem C14_no_assert :
  forall p0 ls, match crun (init p0) ls with inr (_, SPanic _) => False | _ => True end.
Proof. exact C15_no_assert. Qed.

Theorem C14_stray_ack :
  forall s h ae,
  InvG s h -> can_recv s = true -> (forall p, s_local s <> LWaitingAck p) ->
  cstep s (LRecv (InSettingsAck ae)) =
  SOk (set_ga s true (Some (r_last s, PROTOCOL_ERROR)) (g_user s) (Some (r_last s, PROTOCOL_ERROR, []))) [OStreamsError] FLoop.
Proof. exact C14_stray_ack. Qed.

(* between the take of a SETTINGS frame and its acknowledgement nothing of it is applied, after it all of it is:
   as long as no apply failed, applied = taken minus the pending one, and #ACK = #applied *)
Theorem C14_remote_apply_at_ack :
  forall p0 ls s tr,
  crun (init p0) ls = inl (s, tr) ->
  let h := hS_ (upd_trace (hist0 p0) tr) in
  hs_fail h = 0 -> hs_taken h = opt_list (s_remote s) ++ hs_applied h /\ hs_acks h = N.of_nat (length (hs_applied h)).
Proof.
  intros p0 ls s tr H h F. destruct (run_init _ _ _ _ H) as (_ & HS & _). fold h in HS.
  destruct HS as [(_ & T & A)|(F1 & _)]; [auto|]. rewrite F in F1. discriminate.
Qed.

Theorem C14_remote_apply_at_ack_step :
  forall s l s' o fl,
  cstep s l = SOk s' o fl -> In (OFrame WSettingsAck) o ->
  exists c ae p, l = LSettingsAck c ae /\ s_remote s = Some p /\
    ((ae = None /\ o = [OFrame WSettingsAck; OApplyRemote p (negb (s_initial s))] /\ s_remote s' = None) \/
     (exists r x, ae = Some r /\ o = [OFrame WSettingsAck; OApplyRemoteFailed] ++ x /\ forallb neutral x = true /\ dead s')).
Proof. exact C14_remote_apply_at_ack_step. Qed.

(* local settings: sent frames = applied ones, plus the one in flight while WaitingAck; they are applied exactly at the
   label that takes the peer's ACK *)
Theorem C14_local_after_ack :
  forall p0 ls s tr,
  crun (init p0) ls = inl (s, tr) ->
  let h := hL_ (upd_trace (hist0 p0) tr) in
  match s_local s with
  | LWaitingAck p => hl_sent h = p :: hl_applied h
  | _ => hl_sent h = hl_applied h
  end.
Proof. intros p0 ls s tr H. apply (run_init _ _ _ _ H). Qed.

Theorem C14_local_apply_step :
  forall s p,
  can_recv s = true -> s_local s = LWaitingAck p ->
  cstep s (LRecv (InSettingsAck None)) = SOk (set_settings s LSynced (s_remote s) (s_initial s)) [OApplyLocal p] FNext.
Proof. intros s p Hc El. cbn [cstep]. rewrite Hc. cbn [negb recv_frame]. rewrite El. reflexivity. Qed.

Theorem C14_send_settings_refused :
  forall s p, s_local s <> LSynced -> cstep s (LSendSettings p) = SOk s [OApi AErrSettingsPending] FNext.
Proof. intros s p H. cbn [cstep]. destruct (s_local s); try reflexivity. contradiction. Qed.

(* user pings: the counters of successful send_ping calls, PING(USER) frames emitted, acknowledgements accepted and pongs
   delivered differ by at most one, according to the state of the cell *)
Theorem C14_user_ping :
  forall p0 ls s tr,
  crun (init p0) ls = inl (s, tr) ->
  let h := hU_ (upd_trace (hist0 p0) tr) in
  InvU s h /\
  hu_pong h <= hu_ack h /\ hu_ack h <= hu_ping h /\ hu_ping h <= hu_ok h /\ hu_ok h <= hu_pong h + 1.
Proof.
  intros p0 ls s tr H h. destruct (run_init _ _ _ _ H) as (_ & _ & _ & _ & _ & HU). fold h in HU.
  split; [exact HU|]. unfold InvU in HU. destruct (p_user s) as [[| | | |]|]; lia.
Qed.

Theorem C14_user_ping_refused :
  forall s u,
  p_user s = Some u -> u <> UEmpty ->
  exists r, cstep s LUserSendPing = SOk s [OApi r] FNext /\ (r = AErrPingPending \/ (u = UClosed /\ r = AErrBrokenPipe)).
Proof. intros s u E Hu. cbn [cstep]. rewrite E. destruct u; try contradiction; eexists; split; try reflexivity; auto. Qed.

Theorem C14_user_closed_absorbing :
  forall s l s' o fl,
  p_user s = Some UClosed -> cstep s l = SOk s' o fl ->
  p_user s' = Some UClosed /\
  (l = LUserSendPing -> o = [OApi AErrBrokenPipe]) /\ (l = LUserPollPong -> o = [OReg WPongTask; OApi AErrBrokenPipe]).
Proof. exact C14_user_closed_absorbing. Qed.

Theorem C14_user_cell_interleavings :
  forall os f f', FInv f -> frun f os = Some f' -> FInv f'.
Proof. exact C14_user_cell_interleavings. Qed.

Theorem C14_user_cell_atomic :
  forall us,
  forallb (fun o => match o with FUserSend | FUserPoll => true | _ => false end) us = true ->
  frun (mkF UPendingPing true) us = Some (mkF UPendingPing true).
Proof. exact C14_user_cell_atomic. Qed.

Theorem C14_nonvacuous :
  match crun (init no_params) demo_labels with
  | inl (s, tr) =>
    frames_of tr = [ WSettingsAck; WPing true 77; WPing false PING_USER; WGoAway MAX_ID NO_ERROR []; WPing false PING_SHUTDOWN;
                     WGoAway 3 NO_ERROR [] ] /\
    results_of tr = [CROk] /\ c_state s = CClosed NO_ERROR ILibrary /\ r_last s = 3 /\ r_max s = 3
  | inr _ => False
  end.
Proof. exact demo_control. Qed.
