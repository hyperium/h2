(* C18 — per-connection state is bounded by configuration, whatever the peer does.
   Statements (proofs: Proofs/BoundsProofs.v; models: Model/Bounds.v over Model/Counts.v, tied to /repo by the Counts /
   Store lock-steps, the DATA-budget lock-step and the classification of every statistics snapshot evaluated in Coq). *)
From H2V Require Import Base.Tac Model.Counts Model.Bounds Proofs.CountsProofs Proofs.BoundsProofs.

(* For ANY sequence of calls into counts.rs that respects the callers' query-then-increment discipline (checked by the
   lock-step): the reset quotas and the library-reset quota are never exceeded. *)
Theorem C18_quotas_invariant :
  forall ls st, QInv st ->
  match crun st ls with
  | inl (Some (st', _)) => QInv st'
  | _ => True
  end.
Proof. exact crun_quota. Qed.

Theorem C18_initial_quotas_ok :
  forall ms mr mlr mrr mle, limit_ok mr -> (0 <= mlr)%Z -> (0 <= mrr)%Z -> limit_ok mle -> QInv (cinit ms mr mlr mrr mle).
Proof. exact cinit_quota. Qed.

(* Whatever the peer sends (any sequence of the peer / application moves of Part C), the capped counters stay within their
   caps. *)
Theorem C18_quotas_hold :
  forall ls ms mr mlr mrr mle push st,
  limit_ok mr -> (0 <= mlr)%Z -> (0 <= mrr)%Z -> limit_ok mle ->
  brun (binit (cinit ms mr mlr mrr mle) push) ls = Some st ->
  match max_recv (b_cs st) with Some m => (num_recv (b_cs st) <= m)%Z | None => True end /\
  (num_lreset (b_cs st) <= max_lreset (b_cs st))%Z /\ (num_rreset (b_cs st) <= max_rreset (b_cs st))%Z /\
  match max_lerr (b_cs st) with Some m => (num_lerr (b_cs st) <= m)%Z | None => True end.
Proof.
  intros ls ms mr mlr mrr mle push st H1 H2 H3 H4 E. pose proof (brun_inv ls _ _ (cinit_quota ms mr mlr mrr mle H1 H2 H3 H4 : BInv (binit _ push)) E) as (HI & Q1 & Q2 & Q3).
  repeat split; auto. apply HI.
Qed.

(* refusal instead of growth *)
Theorem C18_over_limit_stream_refused :
  forall st key st' o,
  b_failed st = false -> below (num_recv (b_cs st)) (max_recv (b_cs st)) = false ->
  bstep st (BOpen key) = Some (st', o) ->
  o = [BRefused] /\ num_recv (b_cs st') = num_recv (b_cs st) /\ counted (b_cs st') = counted (b_cs st).
Proof.
  intros st key st' o Hf Hb. unfold bstep. rewrite Hf. destruct (recv_open (b_cs st)) as [c1 d] eqn:E1.
  destruct (open_refuses _ _ _ E1) as (A & B & _ & D). rewrite (proj2 D Hb).
  intros [= <- <-]. auto.
Qed.

Theorem C18_reset_flood_disconnects :
  forall st st' o,
  BInv st -> b_failed st = false -> num_rreset (b_cs st) = max_rreset (b_cs st) ->
  bstep st BRstUnaccepted = Some (st', o) -> o = [BGoAway ENHANCE_YOUR_CALM] /\ b_failed st' = true.
Proof.
  intros st st' o H Hf Hq. unfold bstep. rewrite Hf. destruct (recv_reset_unaccepted (b_cs st)) as [c1 d] eqn:E1.
  destruct (recv_reset_quota _ _ _ H E1) as [(_ & B & _)|(-> & _)]; [lia|].
  intros [= <- <-]. auto.
Qed.

Theorem C18_error_flood_disconnects :
  forall st st' o m,
  BInv st -> b_failed st = false -> max_lerr (b_cs st) = Some m -> num_lerr (b_cs st) = m ->
  bstep st BStreamError = Some (st', o) -> o = [BGoAway ENHANCE_YOUR_CALM] /\ b_failed st' = true.
Proof.
  intros st st' o m H Hf Hm Hq. unfold bstep. rewrite Hf. destruct (library_reset (b_cs st)) as [c1 d] eqn:E1.
  destruct (library_reset_quota _ _ _ H E1) as [(_ & B & _)|(-> & _)].
  - rewrite Hm in B. unfold below in B. lia.
  - intros [= <- <-]. auto.
Qed.

Theorem C18_reset_expiry_quota :
  forall st st' d, QInv st -> enqueue_reset_expiration st = (st', d) ->
  (d = Admit /\ num_lreset st' = num_lreset st + 1 /\ num_lreset st' <= max_lreset st')%Z \/
  (d = NotRemembered /\ num_lreset st' = num_lreset st /\ num_lreset st = max_lreset st)%Z.
Proof.
  intros st st' d.
  intros (_ & Q1 & _). unfold enqueue_reset_expiration. cbn [cstep]. simp_c.
  destruct (Z.ltb_spec (num_lreset st) (max_lreset st)); cbn [negb]; intros [= <- <-]; simp_c; [left|right];
    repeat split; lia.
Qed.

(* DATA-frame budget: buffered small frames are bounded by the budget plus what large frames paid back, buffered empty frames
   by the fixed cap; the frame that exceeds either is answered with the GOAWAY decision. *)
Theorem C18_data_frames_bounded :
  forall ls mx st,
  drun (dinit mx) ls = Some st -> d_failed st = false ->
  (count_if is_tiny (d_buf st) <= mx + d_repl st /\ count_if is_zero (d_buf st) <= MAX_EMPTY /\ d_max st = mx)%N.
Proof.
  intros ls mx st E Hf. destruct (drun_inv mx ls _ _ (dinit_inv mx) E) as [M H].
  pose proof (tiny_le_cost (d_buf st)). specialize (H Hf). lia.
Qed.

Theorem C18_data_frame_refused :
  forall st len st' o,
  dstep st (DRecord len) = Some (st', o) ->
  (o = [DExhausted] <-> (len = 0 /\ MAX_EMPTY < d_empty st + 1) \/ (0 < len < DF_T /\ d_avail st < DF_T - len))%N /\
  (o = [DExhausted] -> d_failed st' = true /\ d_avail st' = d_avail st).
Proof. exact data_frame_refused. Qed.

(* the bound: a classified snapshot meeting the class constraints keeps at most B(config, app_held) records apart from the
   reserved pushed streams (known class KF-C18-1) *)
Theorem C18_records_bounded_except_known :
  forall l s, snap_ok l s = true -> within s l = true.
Proof.
  intros l s.
  unfold snap_ok, within, B, osum, total, ole.
  destruct (l_max_recv l), (l_max_send l), (l_max_lerr l); try reflexivity.
  rewrite !andb_true_iff, !N.leb_le, N.eqb_eq. lia.
Qed.

(* KF-C18-1 / KF-C18-2: the faithful model has NO bound for reserved pushed streams and queued interim responses: for every n
   there is a peer sequence that reaches n without touching any quota and without failing the connection *)
Theorem C18_push_promises_unbounded_refuted :
  forall c (n : nat),
  exists st, brun (binit c true) (repeat BPushPromise n) = Some st /\ b_resv st = N.of_nat n /\ b_failed st = false /\ b_cs st = c.
Proof. intros c n. eexists. split; [apply push_promises_run|]. cbn. auto. Qed.

Theorem C18_interim_responses_unbounded_refuted :
  forall c push (n : nat),
  exists st, brun (binit c push) (repeat BInfoHeaders n) = Some st /\ b_info st = N.of_nat n /\ b_failed st = false /\ b_cs st = c.
Proof. intros c push n. eexists. split; [apply interim_responses_run|]. cbn. auto. Qed.

Theorem C18_nonvacuous_budget :
  match drun (dinit 600) [DRecord 1; DRecord 1; DRelease 1; DRecord 1; DRecord 1] with
  | Some st => d_failed st = true /\ d_avail st = 90%N
  | None => False
  end.
Proof. exact demo_budget. Qed.

Theorem C18_nonvacuous_bound :
  check_bounds (mkBL (Some 5%N) (Some 100%N) 10 20 (Some 1024%N), [mkBS 3 5 2 1 400 0 0 1 5 2 1 0]) = true.
Proof. exact demo_bound. Qed.
