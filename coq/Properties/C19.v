(* C19 — finished streams are forgotten and an idle client connection closes itself.
   Statements (proofs: Proofs/StoreProofs.v, Proofs/StoreInv.v; model: Model/Store.v, tied to
   /repo/src/proto/streams/{store,stream,streams,counts}.rs and proto/connection.rs by the lock-step correspondence). *)
From H2V Require Import Base.Tac Model.Counts Model.Store Proofs.CountsProofs Proofs.StoreLists Proofs.StoreInv Proofs.StoreProofs.
Local Open Scope N_scope.

(* The invariant holds initially and after ANY sequence of labels (for every choice of slab indices, every interleaving
   of inserts, queue operations, handle creation / clone / drop, Streams clone / drop and transition_after, and every
   value of the observed inputs). *)
Theorem C19_initial_state_ok :
  forall ms mr mlr mrr mle, limit_ok mr -> SInv (sinit ms mr mlr mrr mle).
Proof.
  intros ms mr mlr mrr mle H. unfold sinit. constructor; cbn [slab ids refs nstreams handles qs cs map length].
  - constructor.
  - intros id idx A. discriminate.
  - intros k s [].
  - intros idx r A. discriminate.
  - reflexivity.
  - intros x k [].
  - intros idx r f A. discriminate.
  - apply cinit_inv. exact H.
  - intros idx r A. discriminate.
Qed.

Theorem C19_invariant :
  forall ls st, SInv st ->
  match srun st ls with
  | inl (Some (st', _)) => SInv st'
  | _ => True
  end.
Proof. intros ls st H. exact (proj2 (srun_ok ls st H)). Qed.

(* No assert / underflow / `dangling store key` panic of the modelled code fires along any label sequence, except when a
   label is applied to a key argument that does not resolve in the state it is applied to (the caller's own Ptr). *)
Theorem C19_no_panic :
  forall ls st, SInv st -> run_ok st ls.
Proof. intros ls st H. exact (proj1 (srun_ok ls st H)). Qed.

(* Every key held by a live handle, by a queue or by the id map resolves - to the record the handle was created for
   (same serial), to a record carrying the queue's flag, to a record with that id - and resolve never returns a record whose
   id differs from the key's. *)
Theorem C19_no_stale_key :
  forall st, SInv st ->
  (forall k s, In (k, s) (handles st) -> exists r, resolve st k = Some r /\ r_serial r = s /\ 0 < r_ref r) /\
  (forall q k, In (q, k) (qs st) -> exists r, resolve st k = Some r /\ r_fl r (flag_of q) = true) /\
  (forall id idx, alook id (ids st) = Some idx -> exists r, resolve st (idx, id) = Some r) /\
  (forall k r, resolve st k = Some r -> r_id r = snd k).
Proof. exact no_stale_key. Qed.

Theorem C19_released_is_removed :
  forall st k o r st' outs,
  SInv st -> resolve st k = Some r ->
  so_closed o = true -> r_ref r = 0 -> no_flags r = true ->
  sstep st (LTransitionAfter k o) = SOk st' outs ->
  alook (fst k) (slab st') = None /\ resolve st' k = None /\ alook (r_id r) (ids st') = None /\
  outs = [OBool true; OBool true] /\
  (so_sched o = false -> cmem (r_serial r) (counted (cs st')) = false /\
     (cmem (r_serial r) (counted (cs st)) = true ->
        if so_local o then (num_send (cs st') = num_send (cs st) - 1)%Z else (num_recv (cs st') = num_recv (cs st) - 1)%Z)).
Proof. exact released_is_removed. Qed.

Theorem C19_no_premature_removal :
  forall st l st' outs idx r,
  sstep st l = SOk st' outs -> alook idx (slab st) = Some r -> alook idx (slab st') = None ->
  r_ref r = 0 /\ no_flags r = true.
Proof. intros st l st' outs idx r E. exact (sstep_keeps st l st' outs E idx r). Qed.

Theorem C19_kept_has_reason :
  forall st, SInv st ->
  forall idx r, alook idx (slab st) = Some r ->
  0 < r_ref r \/ (exists f, r_fl r f = true) \/ r_closed r = false \/ r_owed r = true.
Proof. exact kept_has_reason. Qed.

Theorem C19_kept_has_reason_quiescent :
  forall st st' outs, SInv st -> sstep st LQuiesce = SOk st' outs ->
  forall idx r, alook idx (slab st') = Some r ->
  r_owed r = false /\ (0 < r_ref r \/ (exists f, r_fl r f = true) \/ r_closed r = false).
Proof. exact kept_has_reason_quiescent. Qed.

Theorem C19_reset_slot_returned :
  forall st k o r st' outs,
  sstep st (LTransitionAfter k o) = SOk st' outs -> resolve st k = Some r ->
  so_reset_counted o = true -> r_fl r FReset = false ->
  (num_lreset (cs st') = num_lreset (cs st) - 1)%Z.
Proof. exact reset_slot_returned. Qed.

Theorem C19_idle_client_closes :
  forall st st' outs, SInv st -> sstep st LMaybeClose = SOk st' outs ->
  st' = st /\
  (handles st = [] -> nstreams st = 1 -> counted (cs st) = [] -> outs = [OGoAwayNow]) /\
  (handles st <> [] \/ 1 < nstreams st \/ counted (cs st) <> [] -> outs = []).
Proof. exact idle_client_closes. Qed.

(* dropping a reference wakes the connection task when only one reference is left *)
Theorem C19_streams_drop_wakes :
  forall st st' outs, sstep st LSDrop = SOk st' outs ->
  refs st' = refs st - 1 /\ (outs = [OWakeConn] <-> refs st' = 1).
Proof.
  intros st st' outs E. cbn [sstep] in E. destruct (nstreams st =? 0); [discriminate|]. destruct (refs st =? 0); [discriminate|].
  injection E as <- <-. cbn [refs set_refs]. split; [reflexivity|]. rewrite wake_iff. apply N.eqb_eq.
Qed.

Theorem C19_handle_drop_wakes :
  forall st k s c st1 o1 st2 o2,
  sstep st (LHDrop k s c) = SOk st1 o1 -> sstep st1 LHDropEnd = SOk st2 o2 ->
  refs st1 = refs st - 1 /\ st2 = st1 /\ (o2 = [OWakeConn] <-> refs st1 = 1).
Proof. exact handle_drop_wakes. Qed.

Theorem C19_handle_drop_closed_wakes :
  forall st k s c st' outs r,
  sstep st (LHDrop k s c) = SOk st' outs -> resolve st k = Some r ->
  (outs = [OWakeConn] <-> (r_ref r = 1 /\ c = true)).
Proof. exact handle_drop_closed_wakes. Qed.

(* with the connection alive, "one reference left" means: no request-handle clone and no stream handle *)
Theorem C19_one_reference_left :
  forall st, SInv st -> 1 <= nstreams st -> refs st = 1 -> nstreams st = 1 /\ handles st = [].
Proof.
  intros st H Hn Hr. pose proof (I_refs _ H) as R. destruct (handles st) as [|h hs]; [split; [lia|reflexivity]|].
  cbn [length] in R. lia.
Qed.

(* the non-known order: a pop that IS followed by transition_after releases a record whose last reason it was *)
Theorem C19_evicted_record_released_except_known :
  forall st q k st1 o r1 st2 outs,
  SInv st -> sstep st (LPop q) = SOk st1 [OKey k] ->
  resolve st1 k = Some r1 -> r_ref r1 = 0 -> no_flags r1 = true -> so_closed o = true ->
  sstep st1 (LTransitionAfter k o) = SOk st2 outs ->
  resolve st2 k = None /\ alook (fst k) (slab st2) = None.
Proof.
  intros st q k st1 o r1 st2 outs H E1 Hr H0 Hn Hc E2. destruct (released_is_removed st1 k o r1 st2 outs (sstep_sinv _ _ _ _ H E1) Hr Hc H0 Hn E2) as (A & B & _). auto.
Qed.

Theorem C19_known_evict_refuted :
  srun (sinit None None 0%Z 20%Z None)
       [ LInsert 0 1 1; LPush KCap (0, 1); LTransitionAfter (0, 1) (mkSO true false false true); LQuiesce;
         LPop KCap; LQuiesce ] = inr (5, SStuck 9).
Proof. exact known_evict_refuted. Qed.

Theorem C19_nonvacuous :
  match srun (sinit (Some 5%Z) None 10%Z 20%Z None) demo_slabels with
  | inl (Some (st, outs)) =>
    slab st = [] /\ ids st = [] /\ refs st = 1 /\ handles st = [] /\
    nth 7 outs [] = [] /\ nth 15 outs [] = [OWakeConn] /\ nth 16 outs [] = [OBool true; OBool true] /\
    nth 19 outs [] = [OWakeConn] /\ nth 20 outs [] = [OGoAwayNow]
  | _ => False
  end.
Proof. exact demo_store. Qed.

Theorem C19_slot_reuse_nonvacuous :
  match srun (sinit None None 10%Z 20%Z None)
             [ LInsert 0 1 1; LTransitionAfter (0, 1) (mkSO true false false true); LInsert 0 2 3 ] with
  | inl (Some (st, _)) => resolve st (0, 1) = None /\ exists r, resolve st (0, 3) = Some r /\ r_serial r = 2
  | _ => False
  end.
Proof. exact demo_slot_reuse. Qed.
