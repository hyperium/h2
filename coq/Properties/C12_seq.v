(* Property C12 for SEQUENCES of frames (used by C01's wire composition): statements; every theorem
   is proved in Proofs/FrameSeqProofs.v from the single-frame theorems of C12 and is closed under the
   global context.  A HEADERS / PUSH_PROMISE with its CONTINUATION frames is ONE logical frame.
   [poll] = one call of FramedRead::poll_next (Model/WireCodec.v); [drain] = the reader loop of
   Model/ReadBuf.v ([pump] with enough fuel, Proofs/ReadBufProofs.v). *)
From H2V Require Import Base.Tac Base.Bytes Gen.FrameConsts Ref.Rfc9113Frame Model.FrameCodec Model.WriteBuf
  Model.ReadBuf Model.WireCodec Proofs.WriteBufProofs Proofs.FrameCodecProofs Proofs.ReadBufProofs
  Proofs.FrameSeqProofs.
Local Open Scope N_scope.

(* the reference stream decoder is compositional: the Length field of each 9-octet head determines the
   split, so decoding a concatenation is concatenating the decodings *)
Theorem C12_stream_compositional : forall max a b wa wb,
  rfc_decode_stream max a = Some wa -> rfc_decode_stream max b = Some wb ->
  rfc_decode_stream max (a ++ b) = Some (wa ++ wb).
Proof. exact rfc_decode_stream_app. Qed.

(* for every list of well-formed frames: the concatenation of their encodings decodes (reference:
   split, parse, CONTINUATION reassembly) to exactly their values, in order *)
Theorem C12_seq_roundtrip_stream : forall max fs,
  42 <= max -> max <= MAX_MAX_FRAME_SIZE -> frames_wf max fs = true ->
  exists bs, encode_all max fs = EOk bs /\ rfc_decode_stream max bs = Some (map wire_value_of fs).
Proof. exact frames_roundtrip_stream. Qed.

(* prefix form: every prefix of the octet stream is the complete encodings of a prefix of the frames
   (decoded to their values) followed by a STRICT prefix of the next frame's encoding *)
Theorem C12_seq_stream_prefix : forall max fs,
  42 <= max -> max <= MAX_MAX_FRAME_SIZE -> frames_wf max fs = true ->
  exists bs, encode_all max fs = EOk bs /\
    forall w tail, w ++ tail = bs ->
      exists fs1 fs2 w1 w2,
        fs = fs1 ++ fs2 /\ w = w1 ++ w2 /\ encode_all max fs1 = EOk w1 /\
        rfc_decode_stream max w1 = Some (map wire_value_of fs1) /\
        (w2 = [] \/ exists f fs2' b, fs2 = f :: fs2' /\ encode max f = EOk b /\
                                    DataPathProofs.strict_prefix w2 b).
Proof. exact frames_stream_prefix. Qed.

(* the reader loop of C12 is the iteration of poll_next until it answers Pending, for every HPACK instance *)
Theorem C12_pump_is_iterated_poll : forall (HS : Type) (ops : hpack_ops HS) n (st : rstate HS),
  (length (r_buf st) <= n)%nat ->
  drain ops st =
  match poll ops st with
  | (st', None) => (st', [])
  | (st', Some e) => let (s2, evs) := drain ops st' in (s2, e :: evs)
  end.
Proof. intros HS ops n st _. apply drain_poll. Qed.

(* one logical frame: what the encoder writes for a well-formed value, in front of ANY further octets,
   comes out of ONE poll_next as the event carrying the value, leaving exactly the further octets
   buffered; every strict prefix of it yields Pending.  [cont_ok]: the receiver's CONTINUATION-flood limit
   is not exceeded. *)
Theorem C12_seq_poll_logical : forall smax rmax hls f,
  42 <= smax -> smax <= MAX_MAX_FRAME_SIZE -> smax <= rmax ->
  frame_wf smax f = true -> cont_ok smax rmax hls f ->
  exists bs, encode smax f = EOk bs /\ (9 <= length bs)%nat /\
    (forall st more, rclean rmax hls st -> r_buf st = bs ++ more ->
       exists hs', poll hp_raw st = (set_core st more LdHead None hs' false, Some (raw_event f))) /\
    (forall st, rclean rmax hls st -> DataPathProofs.strict_prefix (r_buf st) bs -> snd (poll hp_raw st) = None).
Proof. exact poll_logical. Qed.

(* sequences through the model's reader: whatever prefix of the sender's octets has arrived, in whatever
   reads, the reader has delivered a prefix of the frames in order; all of them once all octets are there *)
Theorem C12_seq_reader_prefix : forall smax rmax hls,
  42 <= smax -> smax <= MAX_MAX_FRAME_SIZE -> smax <= rmax ->
  forall fs, frames_wf smax fs = true -> Forall (cont_ok smax rmax hls) fs ->
  exists bs, encode_all smax fs = EOk bs /\
    forall chunks tail, concat chunks ++ tail = bs ->
      exists fs1 fs2, fs = fs1 ++ fs2 /\
        map raw_event_frame (snd (feed_all hp_raw (rinit [] rmax hls) chunks)) = map Some fs1 /\
        (tail = [] -> fs2 = []).
Proof.
  intros smax rmax hls H42 Hmax Hr fs Hwf Hc. destruct (drain_frames smax rmax hls H42 Hmax Hr fs Hwf Hc) as (bs & He & Hd).
  exists bs. split; [exact He|]. intros chunks tail E.
  rewrite C12_read_chunking_init, feed_all_single, feed_drain.
  apply (Hd _ (concat chunks) tail); [|reflexivity|exact E].
  unfold rclean, with_buf, rinit. cbn. auto.
Qed.

Theorem C12_seq_nonvacuous :
  let fs := [FHeaders 1 (headers_END_HEADERS + headers_END_STREAM) None (repeat 65 200);
             FData 3 0 None [1; 2; 3];
             FPushPromise 1 headers_END_HEADERS 2 (repeat 66 70);
             FReset 3 8] in
  frames_wf 64 fs = true /\ Forall (cont_ok 64 16384 16777216) fs /\
  match encode_all 64 fs with
  | EOk bs =>
      payload_lengths (S (length bs)) bs = Some [64; 64; 64; 8; 3; 64; 10; 4] /\
      rfc_decode_stream 64 bs = Some (map wire_value_of fs) /\
      map raw_event_frame (snd (feed_all hp_raw (rinit [] 16384 16777216) (cut (repeat 7 60) bs))) = map Some fs /\
      map raw_event_frame (snd (feed_all hp_raw (rinit [] 16384 16777216) [firstn (length bs - 1) bs]))
        = map Some (removelast fs)
  | _ => False
  end.
Proof. exact frames_seq_nonvacuous. Qed.
