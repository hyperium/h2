(* C06 -- progress: with a cooperating peer every operation completes (no lost wakeup).  Statements
   (proofs: Proofs/WakeProofs.v, Proofs/ProgressProofs.v, Proofs/ProgressRecv.v, Proofs/RecvFlowRun.v).

   The temporal statement of the property ("eventually completes", over an unmodelled executor, transport and peer) is
   decomposed into statements that hold for ALL label sequences of the models:
     1. wake discipline as an invariant (no lost wakeup),
     2. enabledness of the connection task's work plus a strictly decreasing, bounded-below measure (no idle stall,
        no self-waking livelock inside the model),
     3. the repaired stalls: the pre-repair step violates 1/2, the current one satisfies them.
   What is not derived here: that enabled labels are eventually taken (that is the executor's fairness plus the
   cooperation of transport, peer and application -- explored on the real crate by the waker-only executor oracle). *)
From H2V Require Import Base.Tac Model.Wake Proofs.WakeProofs.
From H2V Require Model.SendFlow Proofs.SendFlowInv Proofs.ProgressProofs.
From H2V Require Model.RecvFlow Proofs.RecvFlowInv Proofs.RecvFlowRun Proofs.ProgressRecv.
Local Open Scope N_scope.

(* 1. NoLostWake.  In every run of the wake model in which no waker slot is used by two tasks at once: every task that
   was told to wait and whose wait is over (w_due) has a wake pending (w_woken); and every task that was told to wait
   either still has its waker stored in the slot or has a wake pending. *)
Theorem C06_no_lost_wake :
  forall (ls : list wlabel) (st : wstate),
  wrun_nodisp notify_of winit ls = Some st ->
  (forall t, In t (w_due st) -> In t (w_woken st)) /\
  (forall t sl, In (t, sl) (w_parked st) -> rget sl (w_reg st) = Some t \/ In t (w_woken st)).
Proof. intros ls st H. destruct (wrun_nodisp_inv _ _ table_complete _ _ winit_inv H) as (A & B). split; assumption. Qed.

(* the same for any implementation table that covers the specification table *)
Theorem C06_no_lost_wake_any_table :
  forall (nf : site -> list slot) (ls : list wlabel) (st : wstate),
  (forall s sl, In sl (interested s) -> In sl (nf s)) ->
  wrun_nodisp nf winit ls = Some st -> forall t, In t (w_due st) -> In t (w_woken st).
Proof. intros nf ls st Hc H. exact (proj2 (wrun_nodisp_inv _ _ Hc _ _ winit_inv H)). Qed.

(* the table of the current tree covers the specification: at every site, every slot whose waiters must learn about
   the event is taken and woken *)
Theorem C06_table_complete : forall s sl, In sl (interested s) -> In sl (notify_of s).
Proof. exact table_complete. Qed.

(* the wake is emitted by the very label at which the wait ends *)
Theorem C06_wake_in_same_label :
  forall st s sl t, In sl (interested s) -> rget sl (w_reg st) = Some t ->
  In t (wakes_of (snd (wstep notify_of st (LSite s)))).
Proof. exact wake_in_same_label. Qed.

(* the connection task is woken by every entry through which a handle leaves it work (frame queued, request queued,
   window update owed, target window changed, last handle / stream reference dropped, reservation lowered) *)
Theorem C06_connection_woken_by_work :
  forall st w t, rget SlConn (w_reg st) = Some t -> In t (wakes_of (snd (wstep notify_of st (LSite (StWork w))))).
Proof. intros st w t Hr. apply (wake_in_same_label st (StWork w) SlConn t); [left; reflexivity|exact Hr]. Qed.

(* 3a. the push wait (repaired by a67af12): before, END_STREAM on the parent left the parked task due and not woken *)
Theorem C06_push_fix_needed :
  exists st, wrun_nodisp notify_before_push_fix winit push_run = Some st /\
    In 105 (w_due st) /\ ~ In 105 (w_woken st) /\ no_lost_wake st = false.
Proof. exact push_fix_needed. Qed.

Theorem C06_push_fix_repairs :
  exists st, wrun_nodisp notify_of winit push_run = Some st /\ In 105 (w_due st) /\ In 105 (w_woken st).
Proof. eexists. split; [vm_compute; reflexivity|]. vm_compute. intuition discriminate. Qed.

(* 3b. lowering a reservation (repaired by b730a71): before, the connection task stayed parked with work queued *)
Theorem C06_reserve_fix_needed :
  exists st, wrun_nodisp notify_before_reserve_fix winit reserve_run = Some st /\
    In 1 (w_due st) /\ ~ In 1 (w_woken st) /\ rget SlConn (w_reg st) = Some 1.
Proof. exact reserve_fix_needed. Qed.

Theorem C06_reserve_fix_repairs :
  exists st, wrun_nodisp notify_of winit reserve_run = Some st /\ In 1 (w_woken st) /\ rget SlConn (w_reg st) = None.
Proof. eexists. split; [vm_compute; reflexivity|]. vm_compute. intuition discriminate. Qed.

(* 3c. the readiness wait (repaired by f1e4dd0): sharing the send_task slot with the stream's own SendStream throws one
   waker out (the run is outside the hypothesis of C06_no_lost_wake) and the opening of the stream wakes only the
   other task; with its own slot both are woken *)
Theorem C06_open_fix_needed :
  wrun_nodisp notify_of winit open_run_before = None /\
  let st := wrun notify_of winit open_run_before in
  In (2, SlSend 3) (w_parked st) /\ ~ In 2 (w_woken st) /\ rget (SlSend 3) (w_reg st) = None /\ w_woken st = [111].
Proof. exact open_fix_needed. Qed.

Theorem C06_open_fix_repairs :
  exists st, wrun_nodisp notify_of winit open_run_after = Some st /\ In 2 (w_woken st) /\ In 111 (w_woken st) /\ In 2 (w_due st).
Proof. eexists. split; [vm_compute; reflexivity|]. vm_compute. intuition discriminate. Qed.

(* the hypotheses are satisfiable and the conclusion is not vacuous *)
Theorem C06_nonvacuous_wake :
  exists st, wrun_nodisp notify_of winit wdemo = Some st /\ w_due st <> [] /\ no_lost_wake st = true /\
    w_woken st = [1; 105; 100; 103; 2].
Proof. exact wdemo_runs. Qed.

(* 2a. send side, enabledness: buffered DATA whose head frame is empty or whose stream holds assigned capacity can be
   popped by the connection task -- the label is neither Stuck nor a Panic -- and DATA is emitted
   (cooperative facts used: the transport accepts a frame of positive maximal length, 0 < mx) *)
Theorem C06_send_pop_enabled :
  forall st sid s f q mx,
  SendFlowInv.Inv st -> SendFlow.find_s sid (SendFlow.c_strs st) = Some s -> SendFlow.s_frames s = f :: q ->
  SendFlow.s_dead s = false -> (f = 0 \/ 0 < SendFlow.s_avail s)%Z -> (0 < mx)%Z ->
  exists st' outs, SendFlow.step st (SendFlow.LPopData sid f mx) =
                   SendFlow.Ok st' (SendFlow.OData sid (Z.min (Z.min f mx) (SendFlow.s_avail s)) :: outs).
Proof. exact ProgressProofs.send_pop_enabled. Qed.

(* 2b. send side, variant: every successful pop strictly decreases the queued work (octets + frames), which is never
   negative: no self-waking livelock on the send queues *)
Theorem C06_send_pop_decreases :
  forall st sid sz mx st' outs,
  SendFlowInv.Inv st -> (0 <= sz)%Z -> (0 < mx)%Z ->
  SendFlow.step st (SendFlow.LPopData sid sz mx) = SendFlow.Ok st' outs ->
  (0 <= ProgressProofs.qsum (SendFlow.c_strs st') < ProgressProofs.qsum (SendFlow.c_strs st))%Z.
Proof. exact ProgressProofs.send_pop_decreases. Qed.

(* 2c. receive side: after every error-free history, a record whose application holds the handle, has released
   everything and is owed a WINDOW_UPDATE is queued for the connection task (cooperative fact used: the application
   releases what it reads, r_infl = 0) *)
Theorem C06_owed_update_is_queued :
  forall ls st outs s,
  Forall RecvFlowInv.rlabel_ok ls -> RecvFlow.rrun RecvFlow.rinit_state ls = inl (Some (st, outs)) ->
  In s (RecvFlow.k_strs st) ->
  RecvFlow.r_isrecv s = true -> RecvFlow.r_done s = false -> RecvFlow.r_unl s = false -> RecvFlow.r_infl s = 0%Z ->
  RecvFlow.unclaimed (RecvFlow.r_win s) (RecvFlow.r_avail s) <> None -> RecvFlow.r_pend s = true.
Proof. exact ProgressRecv.owed_update_is_queued. Qed.

(* 2d. ... its pop is enabled, emits the WINDOW_UPDATE and settles the debt (nothing is owed on the record afterwards) *)
Theorem C06_owed_update_pop_settles :
  forall d st s,
  RecvFlowInv.RInvD d st -> In s (RecvFlow.k_strs st) ->
  RecvFlow.unclaimed (RecvFlow.r_win s) (RecvFlow.r_avail s) <> None ->
  exists st' s',
    RecvFlow.rstep st (RecvFlow.RStreamWUPop (RecvFlow.r_id s) true) =
      RecvFlow.ROk st' [RecvFlow.RWU (RecvFlow.r_id s) (RecvFlow.r_avail s - RecvFlow.r_win s)%Z] /\
    RecvFlow.rfind (RecvFlow.r_id s) (RecvFlow.k_strs st') = Some s' /\
    RecvFlow.unclaimed (RecvFlow.r_win s') (RecvFlow.r_avail s') = None /\ RecvFlow.r_pend s' = false.
Proof. exact ProgressRecv.owed_update_pop_settles. Qed.

(* 3d. the design-time stall F1 (repaired by 6962309): without the repair a run reaches a record that is owed its whole
   configured window, has released everything, and is NOT queued -- 2c fails, the WINDOW_UPDATE is never sent *)
Theorem C06_f1_fix_needed :
  exists ls st s, Forall RecvFlowInv.rlabel_ok ls /\ RecvFlowRun.rrun_nofix RecvFlow.rinit_state ls = Some st /\
    In s (RecvFlow.k_strs st) /\
    RecvFlow.r_isrecv s = true /\ RecvFlow.r_done s = false /\ RecvFlow.r_unl s = false /\ RecvFlow.r_infl s = 0%Z /\
    RecvFlow.unclaimed (RecvFlow.r_win s) (RecvFlow.r_avail s) = Some (RecvFlow.r_base s - RecvFlow.r_win s)%Z /\
    (RecvFlow.r_win s < 0)%Z /\ RecvFlow.r_pend s = false /\ ~ RecvFlowInv.rQ s.
Proof. exact RecvFlowRun.C03_fix_needed. Qed.
