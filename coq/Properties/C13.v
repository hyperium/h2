(* C13 - malformed HTTP messages are neither delivered nor generated.
   Statements; the proofs are in Proofs/HttpRulesProofs.v.  Model: Model/HttpRules.v (tied to
   /repo/src/{frame/headers,hpack/header,server,client}.rs and src/proto/streams/{recv,send,stream,
   streams}.rs by the correspondence run of lib/props/parts/httprules.py); reference:
   Ref/Rfc9113Http.v (RFC 9113 section 8, RFC 8441, RFC 9110 8.6). *)
From Coq Require Import String.
From H2V Require Import Base.Tac Base.Bytes Model.HttpTokens Ref.Rfc9113Http Model.HttpRules Proofs.HttpRulesProofs.
Local Open Scope N_scope.

(* Receive side.  For every role, every way a block can be handed to the application (request,
   final response, interim response, promised request, trailers), every configuration (extended
   CONNECT, header-list limit), every answer of the http crate's URI syntax checks, every END_STREAM
   flag, every content-length state of the stream and EVERY field list: a block that RFC 9113
   section 8 calls malformed is not handed to the application - except in the two known classes
   (KF-C13-1: handed over as a response and no :status field; KF-C13-2: handed over as trailers and
   some pseudo-header field).  The content-length of a message is examined when the stream is not
   answering a HEAD request, which is when the reference accounts it against DATA. *)
Theorem C13_recv_except_known :
  forall (r : role) (k : kind) (hk : head_kind) (ext : bool) (max : N) (cl : clen) (eos : bool)
         (v : verdicts) (fs : list field),
    ~ KnownClass k fs ->
    (accounted k hk = true -> cl <> CLHead) ->
    malformed_block r k hk eos fs = true ->
    delivers k (model_recv r k ext max cl eos v fs) = false.
Proof. exact C13_recv_except_known. Qed.

(* the known classes are real deviations of the code (closed witnesses = the replay inputs) *)
Theorem C13_known_1_refuted :
  exists fs, malformed_block Client Response HasContent true fs = true /\
             delivers Response (model_recv Client Response false DEFAULT_MAX CLOmitted true V_all fs) = true.
Proof. exists witness_1. vm_compute. split; reflexivity. Qed.

Theorem C13_known_2_refuted :
  exists fs, malformed_block Client Trailers HasContent true fs = true /\
             delivers Trailers (model_recv Client Trailers false DEFAULT_MAX (CLRemaining 0) true V_all fs) = true.
Proof. exists witness_2. vm_compute. split; reflexivity. Qed.

(* The stream machine that is compared with the implementation: whatever one step queues for the
   application stems from the frame at hand and is justified - a head or trailer section by the
   theorem above (not malformed unless in a known class), a promised request unconditionally. *)
Theorem C13_stream_step :
  forall (c : config) (s : sstate) (f : frame),
  exists newq newp,
    s_queue (step c s f) = s_queue s ++ newq /\ s_pushq (step c s f) = s_pushq s ++ newp /\
    Forall (justified c s f) newq /\ Forall (justified_push c f) newp.
Proof. exact C13_stream_step. Qed.

(* End of a body.  For every content-length state and every sequence of DATA frames ending with
   END_STREAM: a clean end is reported exactly when the payload octets sum to the remaining
   content-length (none declared: always; response to HEAD: only for zero octets); otherwise the
   stream is failed; the body is never left open. *)
Theorem C13_length :
  forall (cl : clen) (pre : list (N * bool)) (len : N),
    open_frames pre ->
    run_data cl (pre ++ [(len, true)]) =
      if length_verdict cl (sumN (map fst pre) + len) then BClean else BError.
Proof. intros cl pre len. exact (run_data_end cl pre len []). Qed.

(* ... which is the reference's body_ok for a message that has content *)
Theorem C13_length_clean_iff :
  forall (declared : option N) (pre : list (N * bool)) (len : N),
    open_frames pre ->
    (run_data (cl_of declared) (pre ++ [(len, true)]) = BClean <->
     body_ok declared HasContent (map fst (pre ++ [(len, true)])) = true).
Proof.
  intros declared pre len Hp. rewrite (C13_length _ pre len Hp). unfold body_ok. rewrite map_app, sumN_app.
  cbn [map fst sumN fold_right]. rewrite N.add_0_r.
  destruct declared as [n|]; cbn [cl_of length_verdict]; [|split; reflexivity].
  destruct (sumN (map fst pre) + len =? n); split; congruence.
Qed.

(* how a head sets the state, exactly as coded (HEAD; first content-length value whatever the status,
   204/304 included; otherwise the state is kept, possibly from an earlier 1xx head; the 204/304
   exemption concerns END_STREAM on the HEADERS frame only) *)
Theorem C13_length_head :
  forall cl eos b cl', head_content_length cl eos b = Some cl' ->
    (cl = CLHead /\ cl' = CLHead) \/
    (cl <> CLHead /\ first_value cl_name (b_fields b) = None /\ cl' = cl) \/
    (cl <> CLHead /\ exists v n, first_value cl_name (b_fields b) = Some v /\ parse_u64 v = Some n /\
        cl' = CLRemaining n /\ (eos = true -> n = 0 \/ status_not_204_304 (b_pseudo b) = false)).
Proof. exact C13_length_head. Qed.

(* a body ended by a trailer section: the trailers are handed over only when nothing remains *)
Theorem C13_length_trailers :
  forall n lens cl' b,
    after_open (CLRemaining n) lens = Some cl' ->
    (delivers Trailers (fst (recv_trailers cl' true b)) = true <-> sumN lens = n).
Proof.
  intros n lens cl' b H. rewrite (trailers_after_open _ lens cl' b H). apply N.eqb_eq.
Qed.

(* Send side.  Send::check_headers (send_request, send_response, interim responses, trailers,
   push_request) accepts a header map exactly when it has no connection-specific field and no TE
   value other than "trailers".  Uppercase names, invalid octets, unknown or misplaced pseudo-header
   fields cannot be expressed in the types of the send API. *)
Theorem C13_send :
  forall fields : list field,
    check_headers fields = true <->
    (existsb connection_specific fields = false /\ existsb bad_te fields = false).
Proof. exact C13_send. Qed.

(* what send_request / push_request put on the wire is not malformed, for every method, URI (by its
   parts), version and representable header map - except in known class KF-C13-3 *)
Theorem C13_send_except_known :
  forall (method : list N) (us ua up : option (list N)) (h2 : bool) (fields w : list field),
    representable fields ->
    send_request method us ua up h2 fields = Some w ->
    ~ KnownSend w ->
    malformed Server Request w = false.
Proof. exact C13_send_except_known. Qed.

Theorem C13_send_push_except_known :
  forall (method : list N) (us ua up : option (list N)) (fields w : list field),
    representable fields ->
    send_push method us ua up fields = Some w ->
    ~ KnownSend w ->
    malformed Client PushedRequest w = false.
Proof. exact C13_send_push_except_known. Qed.

Theorem C13_known_3_refuted :
  exists method us ua up h2 fields w,
    representable fields /\ send_request method us ua up h2 fields = Some w /\ malformed Server Request w = true.
Proof.
  exists (bstr "GET"), None, (Some (bstr "example.com")), None, false, [], [(bstr ":method", bstr "GET"); (bstr ":authority", bstr "example.com"); (bstr ":path", bstr "/")].
  split; [constructor|]. vm_compute. split; reflexivity.
Qed.

(* the hypotheses are satisfiable and the conclusions are not vacuous *)
Theorem C13_nonvacuous :
  (~ KnownClass Request (good_request ++ [(bstr "connection", bstr "close")]) /\
   malformed_block Server Request HasContent false (good_request ++ [(bstr "connection", bstr "close")]) = true /\
   malformed_block Server Request HasContent false good_request = false /\
   delivers Request (model_recv Server Request false DEFAULT_MAX CLOmitted false V_all good_request) = true /\
   delivers Response (model_recv Client Response false DEFAULT_MAX CLOmitted true V_all [(bstr ":status", bstr "200")]) = true) /\
  (exists w, send_request (bstr "GET") (Some (bstr "https")) (Some (bstr "example.com")) (Some (bstr "/x")) false
               [(bstr "accept", bstr "*/*"); (bstr "te", bstr "trailers")] = Some w /\ ~ KnownSend w /\
             send_request (bstr "GET") (Some (bstr "https")) (Some (bstr "example.com")) (Some (bstr "/x")) false
               [(bstr "te", bstr "trailers"); (bstr "te", bstr "gzip")] = None).
Proof. exact (conj C13_recv_nonvacuous C13_send_nonvacuous). Qed.
