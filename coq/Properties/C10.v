(* Property C10: the header blocks an endpoint emits decode - by any conforming HPACK decoder
   that has seen the connection's earlier blocks - to exactly the submitted fields in order;
   the encoder's dynamic table never exceeds the size the peer allowed, and a reduction is
   signalled at the start of the next block.
   Statements; the proofs are in Proofs/HpackEncProofs.v.

   Reading guide
   * [enc_new], [enc_update_max_size], [enc_encode] : model of Encoder::{new, update_max_size,
     encode} of /repo/src/hpack/encoder.rs with table.rs / header.rs (Model/HpackEnc.v).  The
     dynamic table is the list of its entries; the hash index of table.rs is abstracted to a
     search of that list, which the byte-exact correspondence run validates on every check.
     [field_in] = (name or None for `Field { name: None }`, value, sensitive flag);
     [submitted fl] = the (name, value) list meant by [fl] (nameless items take the previous name).
   * [history] = list of (values given to update_max_size before the block, header list);
     [enc_run st h] runs the model over a history: [EOk (final state, blocks)] or [EFail reason].
   * [dec_run L rs h blocks] : the peer.  The reference decoder [rfc_ref_decode_block] of
     Ref/Rfc7541Block.v (RFC 7541 incl. the clause of 4.2 that a reduction must be signalled;
     at most L continuation octets per integer, h2's own decoder has L = 4) with the Huffman
     decoder model [huff_decode_opt], told the same limits ([last_limit]), fed the blocks in order,
     state threaded.
   * [history_ok h] : every name and value is a string of octets (< 256) shorter than 2^24 and no
     block starts with a nameless item (for which the Rust code panics by design). *)
From Coq Require Import String.
From H2V Require Import Base.Tac Base.Bytes Model.Huffman Ref.Rfc7541Block Model.HpackEnc.
From H2V Require Import Proofs.HpackEncProofs.
Local Open Scope N_scope.

(* Round trip.  Both ends start from min(m0, 4096): Encoder::new caps the size it is given at
   DEFAULT_MAX_ALLOWED_SIZE, and update_max_size caps every later value the same way.
   For every initial size, every history of size changes and header lists (any
   names, values, repeats, sensitive values, pseudo headers, sizes from empty to larger than the
   table, table sizes including 0) and every integer-length limit L >= 4 of the decoder: the
   encoder does not fail, and the reference decoder accepts every block and returns exactly the
   submitted fields, in order. *)
Theorem C10_roundtrip :
  forall (L : nat) (m0 : N) (h : history),
  (4 <= L)%nat -> history_ok h = true ->
  exists st outs,
    enc_run (enc_new m0) h = EOk (st, outs) /\
    dec_run L (rstate_init (N.min m0 4096)) h outs = Some (map (fun b => submitted (snd b)) h).
Proof.
  intros L m0 h HL Hok.
  pose proof (run_spec h _ _ (einv_init m0) eq_refl (N.le_refl _)) as H.
  destruct (enc_run (enc_new m0) h) as [[st outs]|e]; [|destruct H as [_ H]; congruence].
  exists st, outs. split; [reflexivity|]. apply H; assumption.
Qed.

(* the hypotheses are satisfiable and the conclusion is not vacuous: a three-block history with a
   pseudo header, a static name, repeats, a nameless item, sensitive values, a lower-then-higher
   and a to-zero size change; the blocks start with 0x82, 0x3f (size update), 0x20 (size update 0) *)
Theorem C10_roundtrip_nonvacuous :
  history_ok demo_history = true /\
  match enc_run (enc_new 4096) demo_history with
  | EOk (_, outs) =>
    dec_run 4 (rstate_init 4096) demo_history outs
    = Some (map (fun b => submitted (snd b)) demo_history) /\
    map (fun o => hd_error o) outs = [Some 130; Some 63; Some 32]
  | EFail _ => False
  end.
Proof. exact demo_roundtrip. Qed.

(* For EVERY history (no hypothesis on the strings): the only failure of the encoder is the
   documented panic for a block that starts with a nameless item; the table's eviction loop never
   runs on an empty table, its size never underflows, no sensitive header reaches an insert. *)
Theorem C10_never_panics :
  forall (m0 : N) (h : history) (e : fail),
  enc_run (enc_new m0) h = EFail e -> e = NoPreviousName.
Proof.
  intros m0 h e H. pose proof (run_spec h _ m0 (einv_init m0) eq_refl (N.le_min_l _ _)) as Hr.
  rewrite H in Hr. apply Hr.
Qed.

(* For EVERY history: the table's accounted size is the RFC size of its entries, it is within
   max_size, and max_size is within the last value given to update_max_size ([allowed]: the
   initial size when there was none) and within 4096. *)
Theorem C10_table_bound :
  forall (m0 : N) (h : history) (st : enc_state) (outs : list (list N)),
  enc_run (enc_new m0) h = EOk (st, outs) ->
  table_size (et_entries (e_table st)) = et_size (e_table st) /\
  et_size (e_table st) <= et_max (e_table st) /\
  et_max (e_table st) <= allowed m0 h /\
  et_max (e_table st) <= 4096.
Proof.
  intros m0 h st outs H. pose proof (run_spec h _ m0 (einv_init m0) eq_refl (N.le_min_l _ _)) as Hr.
  rewrite H in Hr. destruct Hr as (([Hs Hm] & H4 & _) & _ & Hl & _). unfold allowed. auto.
Qed.

(* After update_max_size calls u, ups (capped at max_allowed_size) whose minimum [lo] is below the
   table's max_size, the next block starts with the size update for [lo], followed - when the
   last value [fin] differs - by the one for [fin], before the header field representations
   ([rest] is what the field loop emits from the resized table). *)
Theorem C10_reduction_signalled :
  forall (st : enc_state) (u : N) (ups : list N) (fl : list field_in) (st2 : enc_state) (out : list N),
  tinv (e_table st) -> e_size_update st = None ->
  let vs := map (capv st) ups in
  let lo := fold_left N.min vs (capv st u) in
  let fin := last vs (capv st u) in
  lo < et_max (e_table st) ->
  enc_encode (fold_left enc_update_max_size (u :: ups) st) fl = EOk (st2, out) ->
  exists t1 rest,
    (out = enc_size_update lo ++ rest \/ out = enc_size_update lo ++ enc_size_update fin ++ rest) /\
    (lo <> fin -> out = enc_size_update lo ++ enc_size_update fin ++ rest) /\
    et_max t1 = fin /\ encode_loop t1 None fl = EOk (e_table st2, rest) /\
    et_max (e_table st2) = fin.
Proof. exact enc_reduction_signalled. Qed.

Theorem C10_reduction_signalled_nonvacuous :
  let st := enc_new 4096 in
  tinv (e_table st) /\ e_size_update st = None /\
  fold_left N.min (map (capv st) [4096]) (capv st 100) < et_max (e_table st) /\
  exists st2 out, enc_encode (fold_left enc_update_max_size [100; 4096] st)
                             [FI (Some (HttpTokens.bstr "a"%string)) (HttpTokens.bstr "b"%string) false] = EOk (st2, out).
Proof. exact demo_reduction. Qed.

(* A block split into HEADERS / CONTINUATION fragments at any offsets: the decoder's result is a
   function of the concatenation only (the framing is property C12). *)
Theorem C10_split :
  forall (hdf : list N -> option (list N)) (L : nat) (rs : rstate) (frags : list (list N)) (block : list N),
  concat frags = block ->
  ref_decode_block hdf L rs (concat frags) = ref_decode_block hdf L rs block.
Proof. intros hdf L rs frags block ->. reflexivity. Qed.

(* A sensitive header never changes the dynamic table (and encoding it does not fail). *)
Theorem C10_sensitive_never_indexed :
  forall (t : enc_table) (h : hdr),
  tinv t -> hdr_is_sensitive h = true ->
  exists idx octets, table_index t h = EOk (t, idx) /\ encode_header idx h = EOk octets.
Proof.
  intros t h Ht Hs. destruct (header_spec t h Ht) as (t' & idx & H1 & octets & H2 & (_ & _ & H5) & _).
  rewrite (H5 Hs) in H1. eauto.
Qed.
