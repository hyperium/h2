(* The invariant of the counts model (Model/Counts.v) under every call into counts.rs, and what C05 takes from it:
   admission below the limit, the receive limit, and the slot a closed stream gives back. *)
From H2V Require Import Base.Tac Model.Counts.
Local Open Scope Z_scope.

Fixpoint ccount (loc : bool) (l : list (N * bool)) : Z :=
  match l with
  | [] => 0
  | (_, b) :: l' => (if Bool.eqb b loc then 1 else 0) + ccount loc l'
  end.

Fixpoint cnodup (l : list (N * bool)) : bool :=
  match l with [] => true | (k, _) :: l' => negb (cmem k l') && cnodup l' end.

Lemma ccount_nonneg loc l : 0 <= ccount loc l.
Proof. induction l as [|[k b] l IH]; cbn [ccount]; [lia|]. destruct (Bool.eqb b loc); lia. Qed.

Lemma clook_cmem key l : cmem key l = match clook key l with Some _ => true | None => false end.
Proof.
  induction l as [|[k b] l IH]; cbn [cmem clook]; [reflexivity|].
  destruct (N.eqb k key); cbn [orb]; auto.
Qed.

Lemma ccount_del loc key l b :
  clook key l = Some b -> ccount loc (cdel key l) = ccount loc l - (if Bool.eqb b loc then 1 else 0).
Proof.
  induction l as [|[k c] l IH]; cbn [clook cdel ccount]; [discriminate|].
  destruct (N.eqb k key).
  - intros [= ->]. lia.
  - intros H. cbn [ccount]. rewrite (IH H). lia.
Qed.

Lemma cmem_del_other key k l : k <> key -> cmem k (cdel key l) = cmem k l.
Proof.
  intros Hne. induction l as [|[x c] l IH]; cbn [cmem cdel]; [reflexivity|].
  destruct (N.eqb_spec x key) as [->|_]; cbn [cmem]; [|rewrite IH; reflexivity].
  destruct (N.eqb_spec key k); [congruence|reflexivity].
Qed.

Lemma cmem_del_nodup key l : cnodup l = true -> cmem key (cdel key l) = false /\ cnodup (cdel key l) = true.
Proof.
  induction l as [|[x c] l IH]; cbn [cnodup cmem cdel]; [auto|].
  intros [H1%negb_true_iff H2]%andb_true_iff.
  destruct (N.eqb_spec x key) as [->|Hne]; [auto|].
  destruct (IH H2) as (A & B). cbn [cmem cnodup].
  rewrite A, B, cmem_del_other, H1 by exact Hne. apply N.eqb_neq in Hne. rewrite Hne. auto.
Qed.

Definition limit_ok (o : option Z) : Prop := match o with None => True | Some m => 0 <= m end.

Definition CInv (st : cstate) : Prop :=
  num_send st = ccount true (counted st) /\ num_recv st = ccount false (counted st) /\
  cnodup (counted st) = true /\
  (p_send st = true -> below (num_send st) (max_send st) = true) /\
  (p_recv st = true -> below (num_recv st) (max_recv st) = true) /\
  (p_lreset st = true -> num_lreset st < max_lreset st) /\
  (p_rreset st = true -> num_rreset st < max_rreset st) /\
  (p_lerr st = true -> below (num_lerr st) (max_lerr st) = true) /\
  0 <= num_lreset st /\ 0 <= num_rreset st /\ 0 <= num_lerr st /\
  limit_ok (max_recv st) /\ match max_recv st with None => True | Some m => num_recv st <= m end.

Ltac simp_c :=
  unfold upd_send, upd_recv, upd_lreset, upd_rreset, upd_lerr, set_permits in *;
  cbn [max_send num_send max_recv num_recv max_lreset num_lreset max_rreset num_rreset max_lerr num_lerr
       p_send p_recv p_lreset p_rreset p_lerr counted] in *.

(* The invariant under each of the updates cstep is made of.  A query may set a permit only where
   its counter is below the limit; an update of a counter clears its permit.  So each conjunct of the
   new invariant is a hypothesis, or one of the old conjuncts, or the implication of a cleared permit,
   whose premise is false = true. *)
Lemma cinv_permits st a b c d e :
  CInv st ->
  (a = true -> below (num_send st) (max_send st) = true) ->
  (b = true -> below (num_recv st) (max_recv st) = true) ->
  (c = true -> num_lreset st < max_lreset st) ->
  (d = true -> num_rreset st < max_rreset st) ->
  (e = true -> below (num_lerr st) (max_lerr st) = true) ->
  CInv (set_permits st a b c d e).
Proof. unfold CInv. simp_c. tauto. Qed.

Lemma cinv_send st mx n c :
  CInv st -> n = ccount true c -> ccount false c = ccount false (counted st) -> cnodup c = true ->
  CInv (upd_send st mx n c).
Proof. unfold CInv. simp_c. intros H -> -> ->. intuition discriminate. Qed.

Lemma cinv_recv st n c :
  CInv st -> n = ccount false c -> ccount true c = ccount true (counted st) -> cnodup c = true ->
  match max_recv st with None => True | Some m => n <= m end ->
  CInv (upd_recv st n c).
Proof. unfold CInv. simp_c. intros H -> -> ->. intuition discriminate. Qed.

Lemma cinv_lreset st n : CInv st -> 0 <= n -> CInv (upd_lreset st n).
Proof. unfold CInv. simp_c. intuition discriminate. Qed.

Lemma cinv_rreset st n : CInv st -> 0 <= n -> CInv (upd_rreset st n).
Proof. unfold CInv. simp_c. intuition discriminate. Qed.

Lemma cinv_lerr st n : CInv st -> 0 <= n -> CInv (upd_lerr st n).
Proof. unfold CInv. simp_c. intuition discriminate. Qed.

(* Counts::transition_after in its two stages: the slot in the locally-reset count is given back
   first, the slot in the concurrency count after it. *)
Definition return_reset_slot (o : tobs) (st : cstate) : coutcome :=
  if negb (t_pending_reset o) && t_reset_counted o then
    if num_lreset st <=? 0 then CStuck 7 else COk (upd_lreset st (num_lreset st - 1)) []
  else COk st [].

Definition release_stream (key : N) (o : tobs) (st : cstate) : coutcome :=
  if t_closed o then
    if negb (t_sched_reset o) && cmem key (counted st) then
      if negb (match clook key (counted st) with Some b => Bool.eqb b (t_local o) | None => false end) then CStuck 8
      else if t_local o then
        if num_send st <=? 0 then CPanic 8
        else COk (upd_send st (max_send st) (num_send st - 1) (cdel key (counted st))) []
      else
        if num_recv st <=? 0 then CPanic 9
        else COk (upd_recv st (num_recv st - 1) (cdel key (counted st))) []
    else COk st []
  else COk st [].

Lemma cstep_transition_after st key o :
  cstep st (TransitionAfter key o) =
  match return_reset_slot o st with COk st1 _ => release_stream key o st1 | r => r end.
Proof.
  cbn [cstep]. unfold return_reset_slot.
  destruct (negb _ && _); [destruct (_ <=? _)|]; reflexivity.
Qed.

Lemma return_reset_slot_ok o st st1 outs :
  return_reset_slot o st = COk st1 outs ->
  if negb (t_pending_reset o) && t_reset_counted o
  then 0 < num_lreset st /\ st1 = upd_lreset st (num_lreset st - 1)
  else st1 = st.
Proof.
  unfold return_reset_slot. destruct (negb (t_pending_reset o) && t_reset_counted o); [|congruence].
  destruct (Z.leb_spec (num_lreset st) 0); [discriminate|]. intros [= <- _]. auto.
Qed.

Lemma release_stream_ok key o st st' outs :
  release_stream key o st = COk st' outs ->
  (st' = st /\ (t_closed o = true -> t_sched_reset o = false -> cmem key (counted st) = false)) \/
  (t_closed o = true /\ t_sched_reset o = false /\ clook key (counted st) = Some (t_local o) /\
   if t_local o
   then 0 < num_send st /\ st' = upd_send st (max_send st) (num_send st - 1) (cdel key (counted st))
   else 0 < num_recv st /\ st' = upd_recv st (num_recv st - 1) (cdel key (counted st))).
Proof.
  unfold release_stream. intros H.
  destruct (t_closed o), (t_sched_reset o), (cmem key (counted st)); cbn [negb andb] in H;
    try (injection H as <- _; left; split; [reflexivity|congruence]).
  right. destruct (clook key (counted st)) as [b|]; [|discriminate].
  destruct (Bool.eqb_spec b (t_local o)) as [Eb|]; [subst b|discriminate]. cbn [negb] in H.
  repeat split. destruct (t_local o).
  - destruct (Z.leb_spec (num_send st) 0); [discriminate|]. injection H as <- _. auto.
  - destruct (Z.leb_spec (num_recv st) 0); [discriminate|]. injection H as <- _. auto.
Qed.

Definition cstep_ok (r : coutcome) : Prop :=
  match r with COk st' _ => CInv st' | CStuck _ => True | CPanic _ => False end.

Lemma release_stream_inv key o st : CInv st -> cstep_ok (release_stream key o st).
Proof.
  intros HI. pose proof HI as (I1 & I2 & I3 & _ & _ & _ & _ & _ & _ & _ & _ & _ & L2).
  unfold release_stream. destruct (t_closed o); [|exact HI].
  destruct (negb (t_sched_reset o) && cmem key (counted st)) eqn:E; [|exact HI].
  apply andb_true_iff in E as [_ Em]. rewrite clook_cmem in Em.
  destruct (clook key (counted st)) as [b|] eqn:El; [|discriminate].
  destruct (Bool.eqb_spec b (t_local o)) as [Eb|]; [subst b|exact I]. cbn [negb].
  pose proof (ccount_del true _ _ _ El) as D1. pose proof (ccount_del false _ _ _ El) as D2.
  destruct (cmem_del_nodup key _ I3) as [_ D3].
  pose proof (ccount_nonneg true (cdel key (counted st))).
  pose proof (ccount_nonneg false (cdel key (counted st))).
  destruct (t_local o); cbn [Bool.eqb] in D1, D2.
  - destruct (Z.leb_spec (num_send st) 0); [cbn [cstep_ok]; lia|].
    apply cinv_send; auto; lia.
  - destruct (Z.leb_spec (num_recv st) 0); [cbn [cstep_ok]; lia|].
    apply cinv_recv; auto; try lia. destruct (max_recv st); [lia|exact I].
Qed.

Theorem cstep_inv st l : CInv st -> cstep_ok (cstep st l).
Proof.
  intros HI. pose proof HI as (I1 & I2 & I3 & P1 & P2 & P3 & P4 & P5 & N1 & N2 & N3 & L1 & L2).
  destruct l as [| | | | |key|key| | | | |mx ini|key o]; cbn [cstep].
  - apply cinv_permits; auto.
  - apply cinv_permits; auto.
  - apply cinv_permits; auto; lia.
  - apply cinv_permits; auto; lia.
  - apply cinv_permits; auto.
  - destruct (p_send st); [|exact I]. rewrite P1 by reflexivity.
    destruct (cmem key (counted st)) eqn:Em; [exact I|].
    apply cinv_send; cbn [ccount cnodup Bool.eqb]; auto; try lia. rewrite Em, I3. reflexivity.
  - destruct (p_recv st); [|exact I]. pose proof (P2 eq_refl) as Hb. rewrite Hb.
    destruct (cmem key (counted st)) eqn:Em; [exact I|].
    apply cinv_recv; cbn [ccount cnodup Bool.eqb]; auto; try lia; [rewrite Em, I3; reflexivity|].
    destruct (max_recv st); [|exact I]. unfold below in Hb. lia.
  - destruct (p_lreset st); [|exact I]. pose proof (P3 eq_refl).
    destruct (Z.ltb_spec (num_lreset st) (max_lreset st)); [|lia]. apply cinv_lreset; [exact HI|lia].
  - destruct (p_rreset st); [|exact I]. pose proof (P4 eq_refl).
    destruct (Z.ltb_spec (num_rreset st) (max_rreset st)); [|lia]. apply cinv_rreset; [exact HI|lia].
  - destruct (Z.leb_spec (num_rreset st) 0); [exact I|]. apply cinv_rreset; [exact HI|lia].
  - destruct (p_lerr st); [|exact I]. rewrite P5 by reflexivity. apply cinv_lerr; [exact HI|lia].
  - destruct mx as [v|]; [|destruct ini]; auto; apply cinv_send; auto.
  - change (cstep_ok (cstep st (TransitionAfter key o))). rewrite cstep_transition_after. unfold return_reset_slot. destruct (negb (t_pending_reset o) && t_reset_counted o).
    + destruct (Z.leb_spec (num_lreset st) 0); [exact I|].
      apply release_stream_inv, cinv_lreset; [exact HI|lia].
    + apply release_stream_inv, HI.
Qed.

Lemma transition_after_resets st key o st' outs :
  cstep st (TransitionAfter key o) = COk st' outs ->
  num_lreset st' = (if negb (t_pending_reset o) && t_reset_counted o then num_lreset st - 1 else num_lreset st) /\
  max_lreset st' = max_lreset st /\ num_rreset st' = num_rreset st /\ max_rreset st' = max_rreset st /\
  num_lerr st' = num_lerr st /\ max_lerr st' = max_lerr st.
Proof.
  rewrite cstep_transition_after. destruct (return_reset_slot o st) as [st1 o1| |] eqn:R; try discriminate.
  apply return_reset_slot_ok in R. intros [[-> _]|(_ & _ & _ & S)]%release_stream_ok.
  (* the second stage changed nothing, or one of the concurrency counts; the first the reset count or nothing *)
  - destruct (negb _ && _); [destruct R as [_ ->]|subst st1]; simp_c; repeat split.
  - destruct (t_local o), S as [_ ->];
      (destruct (negb _ && _); [destruct R as [_ ->]|subst st1]); simp_c; repeat split.
Qed.

(* The slot of a locally reset stream is given back exactly when the record has left the reset-expiration
   queue - whether or not its RST_STREAM frame has been flushed yet (t_closed).  Before fix 304fa07 of /repo the
   decrement sat inside the `is_closed()` branch and was lost for a record that expired while its RST_STREAM
   was still queued (reset_slot_fix_needed). *)
Lemma reset_slot_returned st key o st' outs :
  cstep st (TransitionAfter key o) = COk st' outs ->
  num_lreset st' = if negb (t_pending_reset o) && t_reset_counted o then num_lreset st - 1 else num_lreset st.
Proof. intros E. apply (transition_after_resets _ _ _ _ _ E). Qed.

(* the step as it was before the fix: nothing happens unless the record is closed *)
Definition cstep_prefix (st : cstate) (key : N) (o : tobs) : coutcome :=
  if t_closed o then cstep st (TransitionAfter key o) else COk st [].

Lemma reset_slot_fix_needed :
  exists st key o, cstep_prefix st key o = COk st [] /\ t_pending_reset o = false /\ t_reset_counted o = true /\
                   num_lreset st = 1 /\
                   match cstep st (TransitionAfter key o) with COk st' _ => num_lreset st' = 0 | _ => False end.
Proof.
  exists (mkC None 0 None 0 10 1 10 0 None 0 false false false false false []), 1%N, (mkT false false true false false).
  vm_compute. repeat split.
Qed.

Lemma cinit_inv ms mr mlr mrr mle : limit_ok mr -> CInv (cinit ms mr mlr mrr mle).
Proof.
  intros H. unfold CInv, cinit. simp_c. cbn [ccount cnodup].
  repeat split; try discriminate; try lia; destruct mr; auto.
Qed.

(* every reachable state satisfies the invariant; no assert of counts.rs can fire *)
Theorem crun_inv ls : forall st,
  CInv st ->
  match crun st ls with
  | inl (Some (st', _)) => CInv st'
  | inl None => True
  | inr (_, CPanic _) => False
  | inr (_, _) => True
  end.
Proof.
  induction ls as [|l ls IH]; intros st HI; cbn [crun]; [exact HI|].
  pose proof (cstep_inv st l HI) as X.
  destruct (cstep st l) as [st1 o1|n|n]; cbn [cstep_ok] in X; auto.
  specialize (IH st1 X).
  destruct (crun st1 ls) as [[[st2 os]|]|[k r]]; [exact IH|exact I|destruct r; exact IH].
Qed.

(* C05, send direction: a locally initiated stream is admitted (counted, its HEADERS released to
   the wire) only in a state where the number of counted local streams is below the limit in force *)
Theorem C05_send_admission st key st' outs :
  CInv st -> cstep st (IncSend key) = COk st' outs ->
  below (num_send st) (max_send st) = true /\ num_send st' = num_send st + 1 /\
  match max_send st' with None => True | Some m => num_send st' <= m end.
Proof.
  intros (_ & _ & _ & P1 & _). cbn [cstep].
  destruct (p_send st); [|discriminate]. pose proof (P1 eq_refl) as Hb. rewrite Hb.
  destruct (cmem key (counted st)); [discriminate|]. intros [= <- _]. simp_c.
  repeat split. destruct (max_send st); [unfold below in Hb; lia|exact I].
Qed.

(* C05, recycling: whenever transition_after sees a closed stream that is not a scheduled reset, the
   stream no longer occupies a slot afterwards, and the matching counter went down by exactly one if
   it did occupy one *)
Theorem C05_slot_recycled st key o st' outs :
  CInv st -> cstep st (TransitionAfter key o) = COk st' outs ->
  t_closed o = true -> t_sched_reset o = false ->
  cmem key (counted st') = false /\
  (cmem key (counted st) = true ->
     if t_local o then num_send st' = num_send st - 1 /\ num_recv st' = num_recv st
     else num_recv st' = num_recv st - 1 /\ num_send st' = num_send st) /\
  (cmem key (counted st) = false -> num_send st' = num_send st /\ num_recv st' = num_recv st).
Proof.
  intros (_ & _ & I3 & _) E Hc Hs. rewrite cstep_transition_after in E.
  destruct (return_reset_slot o st) as [st1 o1| |] eqn:R; try discriminate.
  assert (F : counted st1 = counted st /\ num_send st1 = num_send st /\ num_recv st1 = num_recv st).
  { apply return_reset_slot_ok in R.
    destruct (negb (t_pending_reset o) && t_reset_counted o); [destruct R as [_ ->]|subst st1]; auto. }
  destruct F as (F1 & F2 & F3).
  apply release_stream_ok in E as [[-> Em]|(_ & _ & El & S)]; rewrite F1 in *.
  - rewrite (Em Hc Hs), F2, F3. repeat split; auto; discriminate.
  - rewrite (clook_cmem key (counted st)), El. destruct (cmem_del_nodup key _ I3) as [D _].
    destruct (t_local o), S as [_ ->]; simp_c; rewrite F2, F3; repeat split; auto; discriminate.
Qed.

(* non-vacuity: limit 1, two requests; the second is admitted only after the first closed *)
Definition demo_clabels : list clabel :=
  [ QSend; IncSend 1; QSend; TransitionAfter 1 (mkT true false false false true); QSend; IncSend 2 ].
Example demo_counts :
  match crun (cinit (Some 1) (Some 5) 10 20 None) demo_clabels with
  | inl (Some (st, outs)) => num_send st = 1 /\ outs = [[CBool true]; []; [CBool false]; []; [CBool true]; []]
  | _ => False
  end.
Proof. vm_compute. split; reflexivity. Qed.
