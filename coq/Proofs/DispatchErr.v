(* C09 at the dispatch layer: a stream error is answered by a reset of that stream (inside the section, or by the
   connection through Inner::send_reset). *)
From H2V Require Import Base.Tac Base.Bytes Model.StreamState Ref.Rfc9113Stream Proofs.StreamStateProofs
  Model.Dispatch Proofs.DispatchRecv.
Local Open Scope N_scope.

Fixpoint queued_reset (o : list out) : option (N * N) :=
  match o with
  | [] => None
  | OQueue sid (QReset c) :: _ => Some (sid, c)
  | _ :: o' => queued_reset o'
  end.

Definition frame_ends (l : label) : bool :=
  match l with LRecvHeaders _ eos _ _ _ => eos | LRecvData _ eos _ => eos | _ => false end.

Lemma has_reset_some o : has_reset o = true -> queued_reset o <> None.
Proof.
  induction o as [|x o IH]; [discriminate|]. destruct x as [|? []| | | | | | |]; try exact IH. discriminate.
Qed.

(* a stream error handled inside the section: the record ends up reset, and a RST_STREAM is queued unless the stream
   had been reset before, or has nothing left to send and is closed - already, or by the END_STREAM of this very frame *)
Theorem recv_stream_error_resets st l sid t st' outs :
  recv_frame l = Some (sid, t) -> step st l = Ok st' outs ->
  refused_in outs = true -> result_of outs = ROk ->
  exists r', kget st' (touched st l) = Some r' /\ is_reset (s_state r') = true /\
    (queued_reset outs <> None \/
     exists r, kget st (touched st l) = Some r /\
               (is_reset (s_state r) = true \/
                (s_q r = [] /\ s_infl r = None /\ (is_closed (s_state r) = true \/ frame_ends l = true)))).
Proof.
  intros Hl Hs Hr Hres. destruct (recv_step_effect _ _ _ _ _ _ Hl Hs) as (_ & _ & _ & H).
  destruct (H Hr Hres) as [(r' & Hk & Hrs) Hq]. exists r'. split; [exact Hk|]. split; [exact Hrs|].
  destruct Hq as [Hq|(r & Hkr & Hsp)]; [left; exact (has_reset_some _ Hq)|].
  right. exists r. split; [exact Hkr|]. destruct Hsp as [Hsp|(Hq & Hi & [Hc|[He _]])]; auto.
Qed.

Lemma iget_ids st sid k r : iget st sid = Some (k, r) -> sget sid (c_ids st) = Some k.
Proof.
  unfold iget. destruct (sget sid (c_ids st)); [|discriminate]. destruct (kget st n); [|discriminate].
  intros H; inversion H; auto.
Qed.

Lemma iget_put st sid k r r1 : iget st sid = Some (k, r) -> iget (put st k r1) sid = Some (k, r1).
Proof.
  intros H. unfold iget. rewrite ids_put, (iget_ids _ _ _ _ H), kget_put_same. reflexivity.
Qed.

Lemma iget_insert st k r : iget (insert st k r) (s_id r) = Some (k, r).
Proof.
  unfold iget, insert. cbn [c_ids with_ids]. rewrite sget_sset_same.
  unfold kget. cbn [c_slab with_ids put with_slab]. rewrite sget_sset_same. reflexivity.
Qed.

Lemma ids_fail_promised q : forall st, c_ids (fail_promised st q) = c_ids st.
Proof.
  unfold fail_promised. induction q as [|f q IH]; intros st; cbn [fold_left]; auto. rewrite IH.
  destruct f; cbn [fail_promised_one]; auto. destruct (iget st promised) as [[ck c]|]; auto.
Qed.

Lemma ids_drop_promises st o q : c_ids (drop_promises st o q) = c_ids st.
Proof. unfold drop_promises. destruct (has_cleared o); auto. apply ids_fail_promised. Qed.

Lemma iget_drop_put st sid k r r1 o q :
  iget st sid = Some (k, r) -> is_reset (s_state r1) = true ->
  exists r', iget (drop_promises (put st k r1) o q) sid = Some (k, r') /\ is_reset (s_state r') = true.
Proof.
  intros H Hr. unfold iget. rewrite ids_drop_promises, ids_put, (iget_ids _ _ _ _ H).
  destruct (drop_put_same st k r1 o q Hr) as (r' & -> & Hr'). eauto.
Qed.

(* the reset the connection owes for a stream error handed up to it *)
Theorem poll2_reset_resets st sid code quota can nk st' outs :
  step st (LPoll2Reset sid code quota can nk) = Ok st' outs ->
  (quota = false /\ result_of outs = RErr too_many_internal_resets /\ queued_reset outs = None)
  \/ (quota = true /\ result_of outs = ROk /\
      exists k r', iget st' sid = Some (k, r') /\ is_reset (s_state r') = true /\
        (queued_reset outs = Some (sid, code) \/
         exists r, iget st sid = Some (k, r) /\ (is_reset (s_state r) = true \/ closed_full r = true))).
Proof.
  cbn [step]. unfold step_poll2_reset, actions_send_reset. intros Hs.
  destruct (sid =? 0); [discriminate|].
  destruct quota; cbn [negb] in Hs.
  2:{ left. destruct (iget st sid) as [[k r]|]; [|destruct (kget _ nk); [discriminate|]];
        apply res1_inv in Hs as [-> ->]; auto. }
  right. split; [reflexivity|].
  destruct (iget st sid) as [[k r]|] eqn:Hi.
  - pose proof (send_reset_core_outs sid code Library r) as Ho.
    pose proof (send_reset_core_reset sid code Library r) as Hr.
    destruct (send_reset_core sid code Library r) as [r1 o1]. cbn [fst snd] in Ho, Hr.
    apply res1_inv in Hs as [-> ->]. rewrite <- (state_enqueue_reset_expiration can) in Hr.
    assert (Hq : result_of (o1 ++ [ORes ROk]) = ROk /\
                 (queued_reset (o1 ++ [ORes ROk]) = Some (sid, code) \/ is_reset (s_state r) = true \/ closed_full r = true)).
    { subst o1. destruct (is_reset (s_state r)); [auto|]. destruct (closed_full r); auto. }
    destruct Hq as [Hres Hq]. split; [exact Hres|]. exists k.
    destruct (iget_drop_put st sid k r _ o1 (reset_drops r) Hi Hr) as (r' & Hd & Hr').
    exists r'. split; [exact Hd|]. split; [exact Hr'|]. destruct Hq as [Hq|Hq]; [left; exact Hq|right; exists r; auto].
  - destruct (kget _ nk); [discriminate|]. cbn in Hs.
    destruct can; apply res1_inv in Hs as [-> ->]; (split; [reflexivity|]); exists nk; eexists;
      (split; [exact (iget_insert _ _ _)|split; [reflexivity|left; reflexivity]]).
Qed.
