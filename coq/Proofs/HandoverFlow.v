(* Two facts about Model/SendFlow.v in the shape of their counterparts in the hand-over model, so that Properties/C20_flow.v
   can set them beside Properties/C20.v: a pop takes `pop_len` octets off the head of `s_frames` and charges them to both
   windows, as staging does to Handover's `abs_queue` (HandoverProofs.stage_spec, same `len`); clear_queue empties the list,
   as HandoverProofs.clear_spec empties `abs_queue`.  No theorem relates the two models, which share no state. *)
From H2V Require Import Base.Tac Model.SendFlow Proofs.SendFlowLists Proofs.SendFlowInv.
Local Open Scope Z_scope.

Definition pop_len (s : sstream) (sz max_len : Z) : Z := Z.min (Z.min sz max_len) (as_size (s_avail s)).

Theorem sendflow_pop_queue st sid sz max_len st' outs :
  step st (LPopData sid sz max_len) = Ok st' outs ->
  exists s s' q,
    find_s sid (c_strs st) = Some s /\ s_frames s = sz :: q /\
    find_s sid (c_strs st') = Some s' /\
    s_frames s' = (if pop_len s sz max_len <? sz then [sz - pop_len s sz max_len] else []) ++ q /\
    s_buf s' = s_buf s - pop_len s sz max_len /\
    s_win s' = s_win s - pop_len s sz max_len /\
    c_win st' = c_win st - pop_len s sz max_len.
Proof.
  cbn [step]. destruct (find_s sid (c_strs st)) as [s|] eqn:Ef; [|discriminate].
  destruct (s_frames s) as [|f q] eqn:Eq; [discriminate|].
  destruct (Z.eqb_spec f sz) as [->|]; cbn [negb]; [|discriminate].
  destruct (s_dead s && (0 <? sz)); [discriminate|].
  destruct ((0 <? sz) && (s_avail s =? 0)); [discriminate|].
  fold (pop_len s sz max_len). set (len := pop_len s sz max_len).
  destruct ((0 <? len) && (as_size (s_win s) <? len)); [discriminate|].
  destruct ((0 <? len) && (s_win s <? len)); [discriminate|].
  destruct (s_buf s <? len); [discriminate|]. destruct (s_req s <? len); [discriminate|].
  destruct (notify_if_up _ _ _) as [s2 o2] eqn:En.
  destruct ((0 <? len) && (c_win st <? len)); [discriminate|].
  intros [= <- <-]. destruct (notify_same _ _ _ _ _ En) as (E1 & E2 & _ & _ & E5 & E6).
  exists s, s2, q. split; [reflexivity|]. split; [exact Eq|].
  split; [exact (find_put st sid s s2 Ef E1)|]. split; [|split; [exact E5|split; [exact E2|reflexivity]]].
  rewrite E6. cbn [s_frames set_req set_bufq]. fold len. destruct (len <? sz); reflexivity.
Qed.

(* clear_queue of the flow model empties the list (its in-flight remainder included) *)
Theorem sendflow_clear_queue st sid st' outs :
  clear_queue st sid = Ok st' outs ->
  exists s s', find_s sid (c_strs st) = Some s /\ find_s sid (c_strs st') = Some s' /\ s_frames s' = [] /\ s_buf s' = 0.
Proof.
  unfold clear_queue. destruct (find_s sid (c_strs st)) as [s|] eqn:Ef; [|discriminate].
  intros [= <- _]. exists s, (set_req (set_bufq s 0 []) 0).
  split; [reflexivity|]. split; [exact (find_put st sid s (set_req (set_bufq s 0 []) 0) Ef eq_refl)|]. split; reflexivity.
Qed.
