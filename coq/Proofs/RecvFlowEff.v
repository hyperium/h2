(* What a label of the receive-flow model may do to the advertised windows and which WINDOW_UPDATEs
   it may emit: the vocabulary in which Proofs/RecvFlowInv.v states the effect of every label. *)
From H2V Require Import Base.Tac Model.RecvFlow Proofs.RecvFlowLists.
Local Open Scope Z_scope.

(* the strong form of win_le: st' holds no new record *)
Definition win_le_s (st st' : rstate) : Prop :=
  forall key s', rfind key (k_strs st') = Some s' ->
    exists s, rfind key (k_strs st) = Some s /\ r_win s' <= r_win s.

(* no surviving record's window increased *)
Definition win_le (st st' : rstate) : Prop :=
  forall key s s', rfind key (k_strs st) = Some s -> rfind key (k_strs st') = Some s' -> r_win s' <= r_win s.

Definition no_wu (o : list rout) : Prop :=
  forallb (fun x => match x with RWU _ _ => false | _ => true end) o = true.

Lemma win_le_s_weak st st' : win_le_s st st' -> win_le st st'.
Proof.
  intros H key s s' F F'. destruct (H key s' F') as (x & Fx & Hx). congruence.
Qed.

Lemma win_le_s_same st st' : k_strs st' = k_strs st -> win_le_s st st'.
Proof. intros E key s' F. rewrite E in F. exists s'. split; [exact F|lia]. Qed.

Lemma win_le_s_trans a b c : win_le_s a b -> win_le_s b c -> win_le_s a c.
Proof.
  intros H1 H2 key s' F. destruct (H2 key s' F) as (x & Fx & Hx). destruct (H1 key x Fx) as (y & Fy & Hy).
  exists y. split; [exact Fy|lia].
Qed.

Lemma win_le_s_upd st st' s s1 :
  k_strs st' = rupd s1 (k_strs st) -> rfind (r_id s1) (k_strs st) = Some s -> r_win s1 <= r_win s ->
  win_le_s st st'.
Proof.
  intros E F Hw key x Fx. rewrite E, rfind_rupd in Fx.
  destruct (N.eqb_spec (r_id s1) key) as [<-|_].
  - rewrite F in Fx. injection Fx as <-. exists s. split; [exact F|exact Hw].
  - exists x. split; [exact Fx|lia].
Qed.

Lemma win_le_s_mark st st' t : k_strs st' = mark_done t (k_strs st) -> win_le_s st st'.
Proof.
  intros E key x Fx. rewrite E, rfind_mark_done in Fx.
  destruct (rfind key (k_strs st)) as [s|]; [|discriminate]. injection Fx as <-.
  exists s. split; [reflexivity|]. destruct (mark1_same t s) as (_ & _ & ->). lia.
Qed.

Lemma no_wu_In o key incr : no_wu o -> ~ In (RWU key incr) o.
Proof. intros H HIn. discriminate (proj1 (forallb_forall _ o) H _ HIn). Qed.

Definition rquiet (st st' : rstate) (o : list rout) : Prop :=
  k_win st' = k_win st /\ win_le_s st st' /\ no_wu o.

Lemma rquiet_same st st' o : k_win st' = k_win st -> k_strs st' = k_strs st -> no_wu o -> rquiet st st' o.
Proof. intros H1 H2 H3. split; [exact H1|]. split; [apply win_le_s_same; exact H2|exact H3]. Qed.

Lemma rquiet_upd st st' s s1 :
  k_win st' = k_win st -> k_strs st' = rupd s1 (k_strs st) -> rfind (r_id s1) (k_strs st) = Some s ->
  r_win s1 <= r_win s -> rquiet st st' [].
Proof.
  intros H1 H2 F Hw. split; [exact H1|]. split; [exact (win_le_s_upd _ _ _ _ H2 F Hw)|reflexivity].
Qed.

(* the connection window stays when the frame was refused with a connection error before it was charged *)
Definition data_eff (st : rstate) (sz : Z) (st' : rstate) (o : list rout) : Prop :=
  (k_win st' = k_win st - sz \/ (k_win st' = k_win st /\ rhas_conn_err o = true)) /\
  win_le_s st st' /\ no_wu o.

Lemma data_eff_refused st sz : data_eff st sz st [RConnErr].
Proof.
  split; [right; split; reflexivity|]. split; [apply win_le_s_same|]; reflexivity.
Qed.

Lemma data_eff_same st sz st' o :
  k_win st' = k_win st - sz -> k_strs st' = k_strs st -> no_wu o -> data_eff st sz st' o.
Proof. intros H1 H2 H3. split; [left; exact H1|]. split; [apply win_le_s_same; exact H2|exact H3]. Qed.

Definition conn_emission (st st' : rstate) (o : list rout) (incr : Z) : Prop :=
  o = [RWU 0 incr] /\ 0 < incr /\ k_win st' = k_win st + incr /\
  k_win st' = k_avail st' /\ k_avail st' <= k_target st' /\ k_target st' <= RMAXW.

Definition stream_emission (st st' : rstate) (o : list rout) (key : N) (incr : Z) : Prop :=
  o = [RWU key incr] /\ 0 < incr /\
  exists s s', rfind key (k_strs st) = Some s /\ rfind key (k_strs st') = Some s' /\
    r_win s' = r_win s + incr /\ r_win s' = r_avail s' /\ r_avail s' <= r_base s' /\
    r_base s' <= RMAXW /\ (r_unl s' = false -> r_base s' <= k_init st').

Definition rstep_eff_spec (st : rstate) (l : rlabel) (st' : rstate) (o : list rout) : Prop :=
  match l with
  | RNew _ _ => k_win st' = k_win st /\ win_le st st' /\ no_wu o
  | RConnWU => k_strs st' = k_strs st /\ exists incr, conn_emission st st' o incr
  | RStreamWUPop key true =>
      k_win st' = k_win st /\ (forall k, k <> key -> rfind k (k_strs st') = rfind k (k_strs st)) /\
      (o = [] \/ exists incr, stream_emission st st' o key incr)
  | RApplySettings n _ => k_win st' = k_win st /\ (n <= k_init st -> win_le_s st st') /\ no_wu o
  | RDataUnknown sz | RData _ _ sz _ _ => data_eff st sz st' o
  | _ => rquiet st st' o
  end.
