(* C17 at the dispatch layer: explicit resets, last-handle drops, what leaves the queue afterwards, and how a peer's
   RST_STREAM / GOAWAY / a connection error reaches the handles.  One step from ANY state, all observed inputs. *)
From H2V Require Import Base.Tac Base.Bytes Model.StreamState Ref.Rfc9113Stream Proofs.StreamStateProofs
  Model.Dispatch Proofs.DispatchRecv.
Local Open Scope N_scope.

Fixpoint queued_all (o : list out) : list (N * qframe) :=
  match o with
  | [] => []
  | OQueue sid f :: o' => (sid, f) :: queued_all o'
  | _ :: o' => queued_all o'
  end.

Lemma no_push_reset_drops r : no_push (s_q r) = true -> no_push (reset_drops r) = true.
Proof. unfold reset_drops. destruct (s_popen r); auto. destruct (s_q r) as [|[]]; cbn; auto; discriminate. Qed.

(* SendStream::send_reset, SendResponse::send_reset
   (no_push: the stream's queue holds no unsent PUSH_PROMISE - every stream of a client, every pushed stream; when it
   does, the promised streams are failed together with the dropped promises, repair cc6ac6c) *)
Theorem explicit_reset st k code can st' outs r :
  kget st k = Some r -> no_push (s_q r) = true -> step st (LSendReset k code can) = Ok st' outs ->
  (forall k', k' <> k -> kget st' k' = kget st k') /\ c_ids st' = c_ids st /\ has_emit outs = false /\
  exists r', kget st' k = Some r' /\ s_id r' = s_id r /\
  (* already reset (by either side, or scheduled): nothing more *)
  (is_reset (s_state r) = true ->
     queued_all outs = [] /\ s_state r' = s_state r /\ s_q r' = s_q r /\ s_infl r' = s_infl r) /\
  (is_reset (s_state r) = false ->
     s_state r' = Closed (CError (EReset (s_id r) code User)) /\
     (* closed cleanly and flushed: no RST_STREAM *)
     (closed_full r = true -> queued_all outs = [] /\ s_q r' = []) /\
     (* otherwise exactly one RST_STREAM with the caller's code: after the HEADERS (the first queued frame) of a
        stream not opened yet, else alone; everything else that stream had queued is discarded *)
     (closed_full r = false ->
        queued_all outs = [(s_id r, QReset code)] /\ s_infl r' = None /\
        s_q r' = (if s_popen r then firstn 1 (s_q r) ++ [QReset code] else [QReset code]))).
Proof.
  intros Hk Hnp Hs. cbn [step] in Hs. unfold step_send_reset, actions_send_reset in Hs. rewrite Hk in Hs.
  cbn [negb] in Hs. destruct (send_reset_core (s_id r) code User r) as [r1 o1] eqn:Ec.
  rewrite drop_promises_no_push in Hs by (apply no_push_reset_drops; exact Hnp).
  apply res1_inv in Hs as [-> ->]. destruct (enqueue_reset_expiration_eq can r1) as [b ->].
  split; [intros; apply kget_put_other; auto|]. split; [reflexivity|].
  (* the three outcomes of Send::send_reset *)
  rewrite send_reset_core_eq in Ec.
  destruct (is_reset (s_state r)); [|destruct (closed_full r) eqn:Ef]; inversion Ec; subst r1 o1; clear Ec;
    (split; [reflexivity|]); (eexists; split; [apply kget_put_same|]);
    cbn [set_rexp s_id s_state s_q s_infl set_q set_state]; repeat split; auto; try discriminate.
  - unfold closed_full in Ef. destruct (s_q r); [reflexivity|]. rewrite andb_false_r in Ef. discriminate.
  - destruct (s_popen r); reflexivity.
Qed.

Definition drop_reason (ro : role) (s : state) : N :=
  if is_server ro && is_send_closed s && is_recv_streaming s then NO_ERROR else CANCEL.

Theorem last_drop st k can st' outs r :
  kget st k = Some r -> step st (LDropLast k can []) = Ok st' outs ->
  outs = [] /\ (forall k', k' <> k -> kget st' k' = kget st k') /\ c_ids st' = c_ids st /\
  exists r', kget st' k = Some r' /\ s_id r' = s_id r /\ s_q r' = s_q r /\ s_infl r' = s_infl r /\
  (* finished (cleanly or not): nothing *)
  (is_closed (s_state r) = true -> s_state r' = s_state r) /\
  (* not finished: a reset is scheduled, CANCEL - or NO_ERROR for a server that had completed its response while the
     request body was still arriving *)
  (is_closed (s_state r) = false -> s_state r' = Closed (ScheduledLibraryReset (drop_reason (c_role st) (s_state r)))).
Proof.
  intros Hk Hs. cbn [step] in Hs. unfold step_drop_last in Hs. rewrite Hk in Hs. cbn [cancel_kids] in Hs.
  inversion Hs; subst; clear Hs. split; [reflexivity|].
  split; [intros; apply kget_put_other; auto|]. split; [reflexivity|].
  eexists. split; [apply kget_put_same|].
  unfold maybe_cancel, schedule_implicit_reset, drop_reason. destruct (is_closed (s_state r)) eqn:Ec.
  - repeat split; auto. discriminate.
  - unfold enqueue_reset_expiration. cbn [set_state s_state s_rexp is_local_error negb orb].
    destruct (s_rexp r); [|destruct can]; cbn; repeat split; auto; discriminate.
Qed.

(* pop_frame on a record with a scheduled reset: queued HEADERS (and PUSH_PROMISE) still go out in order; the first
   DATA frame is not sent - the rest of the queue is discarded (unless the code is NO_ERROR: the response is completed
   first); with an empty queue exactly the RST_STREAM with the scheduled code goes out and the record becomes an
   ordinary library reset: nothing follows it *)
Theorem pop_scheduled st k o st' outs r reason :
  kget st k = Some r -> no_push (s_q r) = true -> get_scheduled_reset (s_state r) = Some reason ->
  step st (LPop k o) = Ok st' outs ->
  match s_q r with
  | [] => outs = [OEmit (WFrame (s_id r) (QReset reason))] /\
          exists r', kget st' k = Some r' /\ s_state r' = Closed (CError (EReset (s_id r) reason Library)) /\ s_q r' = []
  | QData eos :: q' =>
    if reason =? NO_ERROR
    then has_app outs = false
    else outs = [OCleared (s_id r)] /\ exists r', kget st' k = Some r' /\ s_q r' = [] /\ s_state r' = s_state r
  | QPush p :: q' => outs = [] \/ outs = [OEmit (WFrame (s_id r) (QPush p))]
  | f :: q' => outs = [OEmit (WFrame (s_id r) f)] /\ exists r', kget st' k = Some r' /\ s_q r' = q' /\ s_state r' = s_state r
  end.
Proof.
  intros Hk Hnp Hr Hs. cbn [step] in Hs. unfold step_pop in Hs. rewrite Hk in Hs.
  unfold clear_queue in Hs. rewrite drop_promises_no_push in Hs by auto.
  destruct (s_popen r || s_ppush r); [discriminate|].
  assert (Hput : forall r2 o2, Ok (put st k r2) o2 = Ok st' outs ->
                 outs = o2 /\ exists r', kget st' k = Some r' /\ s_q r' = s_q r2 /\ s_state r' = s_state r2).
  { intros r2 o2 H; inversion H; subst. split; [reflexivity|]. exists r2. split; [apply kget_put_same|auto]. }
  destruct (s_q r) as [|f q'] eqn:Eq.
  - rewrite Hr in Hs. inversion Hs; subst. split; [reflexivity|]. eexists. split; [apply kget_put_same|]. cbn. auto.
  - destruct f; try exact (Hput _ _ Hs).
    + rewrite Hr in Hs. destruct (reason =? NO_ERROR); cbn [negb] in Hs; [|exact (Hput _ _ Hs)].
      destruct (s_infl r); [discriminate|]. destruct (pp_blocked o); [inversion Hs; reflexivity|].
      destruct (pp_partial o); inversion Hs; reflexivity.
    + destruct (iget _ promised) as [[ck c]|]; inversion Hs; auto.
Qed.

(* a record that is reset (and has no reset scheduled) emits a RST_STREAM only if one is in its queue *)
Theorem pop_reset_only_queued st k o st' outs r code :
  kget st k = Some r -> get_scheduled_reset (s_state r) = None ->
  step st (LPop k o) = Ok st' outs ->
  In (OEmit (WFrame (s_id r) (QReset code))) outs -> exists q', s_q r = QReset code :: q'.
Proof.
  intros Hk Hr Hs Hin. cbn [step] in Hs. unfold step_pop in Hs. rewrite Hk in Hs.
  destruct (s_popen r || s_ppush r); [discriminate|].
  assert (Hone : forall st1 f, Ok st1 [OEmit (WFrame (s_id r) f)] = Ok st' outs -> f = QReset code).
  { intros st1 f H; inversion H; subst. destruct Hin as [E|[]]. inversion E; reflexivity. }
  destruct (s_q r) as [|f q'] eqn:Eq.
  - rewrite Hr in Hs. inversion Hs; subst. destruct Hin.
  - destruct f; try discriminate (Hone _ _ Hs).
    + rewrite Hr in Hs. destruct (s_infl r); [discriminate|]. destruct (pp_blocked o); [inversion Hs; subst; destruct Hin|].
      destruct (pp_partial o); discriminate (Hone _ _ Hs).
    + destruct (iget _ promised) as [[ck c]|]; [discriminate (Hone _ _ Hs)|inversion Hs; subst; destruct Hin].
    + injection (Hone _ _ Hs) as ->. eauto.
Qed.

Lemma polls_surface st k r :
  kget st k = Some r ->
  step st (LPollRecv k) = Ok st [OSurface (s_id r) (ensure_recv_open (s_state r))] /\
  (forall m, step st (LPollReset k m) = Ok st [OSurface (s_id r) (ensure_reason m (s_state r))]).
Proof. intros H. cbn [step]. unfold step_poll_recv, step_poll_reset. rewrite H. auto. Qed.

Theorem peer_reset_reaches_handles st sid code o st' outs k r :
  iget st sid = Some (k, r) -> no_push (s_q r) = true ->
  step st (LRecvReset sid code o) = Ok st' outs -> result_of outs = ROk ->
  let s' := fst (recv_reset sid code (r_queued o) (s_state r)) in
  (exists r', kget st' k = Some r' /\ s_state r' = s' /\ s_q r' = [] /\ s_infl r' = None /\ s_id r' = s_id r) /\
  (forall k', k' <> k -> kget st' k' = kget st k') /\
  step st' (LPollRecv k) = Ok st' [OSurface (s_id r) (ensure_recv_open s')] /\
  (forall m, step st' (LPollReset k m) = Ok st' [OSurface (s_id r) (ensure_reason m s')]).
Proof.
  intros Hi Hnp Hs Hres. cbn [step] in Hs. unfold step_recv_reset, clear_queue in Hs. rewrite Hi in Hs.
  rewrite drop_promises_no_push in Hs by auto.
  destruct (sid =? 0); [apply res1_inv in Hs as [-> ->]; discriminate|].
  destruct ((c_recv_max st <? sid) && _); [apply res1_inv in Hs as [-> ->]; discriminate|].
  destruct (s_popen r && negb (is_server (c_role st))); [apply res1_inv in Hs as [-> ->]; discriminate|].
  destruct (negb (r_quota o)); [apply res1_inv in Hs as [-> ->]; discriminate|].
  apply res1_inv in Hs as [-> ->]. cbn zeta.
  split; [eexists; split; [apply kget_put_same|]; cbn; auto|].
  split; [intros; apply kget_put_other; auto|].
  exact (polls_surface _ k _ (kget_put_same _ _ _)).
Qed.

Lemma map_linked_get st f k r :
  kget st k = Some r -> sget k (map_linked st f) = Some (if is_linked st k then f k r else r).
Proof.
  unfold kget, map_linked. generalize (is_linked st) as lk. intros lk.
  induction (c_slab st) as [|[k' x] l IH]; cbn [sget map fst snd]; [discriminate|].
  destruct (k' =? k) eqn:E.
  - apply N.eqb_eq in E; subst k'. intros H; inversion H; subst. destruct (lk k); cbn [sget fst]; rewrite N.eqb_refl; reflexivity.
  - intros H. destruct (lk k'); cbn [sget fst]; rewrite E; auto.
Qed.

Lemma fail_keys_other failed : forall st k, ~ In k failed -> kget (fail_keys st failed) k = kget st k.
Proof.
  unfold fail_keys. induction failed as [|f failed IH]; intros st k Hn; cbn [fold_left]; auto.
  rewrite IH by (intros H; apply Hn; right; auto).
  destruct (kget st f); auto. apply kget_put_other. intros ->. apply Hn; left; auto.
Qed.

Lemma conn_error_fail_keys failed : forall st, c_conn_error (fail_keys st failed) = c_conn_error st.
Proof.
  unfold fail_keys. induction failed as [|f failed IH]; intros st; cbn [fold_left]; auto.
  rewrite IH. destruct (kget st f); reflexivity.
Qed.

(* a connection error (the peer's GOAWAY with its code and debug data, our own GOAWAY, an I/O error) reaches every
   linked record: the state machine's handle_error, that stream's queue discarded - except the promised records that
   are failed together with a PUSH_PROMISE dropped from a parent's queue (`failed`, repair cc6ac6c) *)
Theorem conn_error_reaches_handles st e failed st' outs k r :
  step st (LHandleError e failed) = Ok st' outs -> kget st k = Some r -> is_linked st k = true ->
  ~ In k failed ->
  let s' := fst (handle_error e (s_state r)) in
  (exists r', kget st' k = Some r' /\ s_state r' = s' /\ s_q r' = [] /\ s_infl r' = None) /\
  c_conn_error st' = Some e /\
  step st' (LPollRecv k) = Ok st' [OSurface (s_id r) (ensure_recv_open s')] /\
  (forall m, step st' (LPollReset k m) = Ok st' [OSurface (s_id r) (ensure_reason m s')]).
Proof.
  intros Hs Hk Hl Hnp. cbn [step] in Hs. unfold step_handle_error in Hs.
  destruct (negb (failed_ok st failed)); [discriminate|]. apply res1_inv in Hs as [-> ->]. cbn zeta.
  assert (Hg : kget (fail_keys (with_conn_error (with_slab st (map_linked st (fun _ r0 => fail_rec e r0))) (Some e)) failed) k
               = Some (fail_rec e r)).
  { rewrite fail_keys_other by auto.
    unfold kget. cbn [c_slab with_conn_error with_slab]. rewrite (map_linked_get st _ k r Hk), Hl. reflexivity. }
  split; [eexists; split; [exact Hg|]; cbn; auto|]. split; [apply conn_error_fail_keys|].
  exact (polls_surface _ k _ Hg).
Qed.

(* the peer's GOAWAY(last, code, debug): every linked stream of ours above `last` is failed with exactly that error;
   the others are untouched *)
Theorem go_away_reaches_handles st last code debug st' outs k r :
  step st (LRecvGoAway last code debug) = Ok st' outs -> result_of outs = ROk ->
  kget st k = Some r -> is_linked st k = true ->
  let e := EGoAway debug code Remote in
  exists r', kget st' k = Some r' /\
    (if (last <? s_id r) && is_local_init (c_role st) (s_id r)
     then s_state r' = fst (handle_error e (s_state r)) /\ s_q r' = [] /\ s_infl r' = None
     else r' = r) /\
  c_conn_error st' = Some e.
Proof.
  intros Hs Hres Hk Hl. cbn [step] in Hs. unfold step_recv_go_away in Hs.
  destruct (c_send_max st <? last); [apply res1_inv in Hs as [-> ->]; discriminate|]. apply res1_inv in Hs as [-> ->]. cbn zeta.
  eexists. split.
  - unfold kget. cbn [c_slab with_conn_error with_slab with_send_max].
    pose proof (map_linked_get st (fun _ r0 => if (last <? s_id r0) && is_local_init (c_role st) (s_id r0)
                                               then fail_rec (EGoAway debug code Remote) r0 else r0) k r Hk) as Hm.
    unfold map_linked in *. cbn [c_slab c_ids is_linked with_send_max] in *.
    change (is_linked (with_send_max st last)) with (is_linked st). rewrite Hm, Hl. reflexivity.
  - split; [|reflexivity]. destruct ((last <? s_id r) && _); cbn; auto.
Qed.

(* composed with the state machine (Proofs/StreamStateProofs.v recv_reset_surfaces): the peer's RST_STREAM(code) on a
   stream that was not closed reaches every handle of it with exactly that code: poll_reset (both flavours) reports
   Ok(Some(code)), a read reports Err(Reset(sid, code, Remote)) unless the peer's message was already complete *)
Theorem peer_reset_surfaces_exact st sid code o st' outs k r :
  iget st sid = Some (k, r) -> no_push (s_q r) = true ->
  step st (LRecvReset sid code o) = Ok st' outs -> result_of outs = ROk ->
  is_closed (s_state r) = false \/ r_queued o = true ->
  (forall m, step st' (LPollReset k m) = Ok st' [OSurface (s_id r) (RReason (Some code))]) /\
  (is_recv_end_stream (s_state r) = false ->
   step st' (LPollRecv k) = Ok st' [OSurface (s_id r) (RProtoErr (EReset sid code Remote))]) /\
  (is_recv_end_stream (s_state r) = true ->
   step st' (LPollRecv k) = Ok st' [OSurface (s_id r) (RBool false)]).
Proof.
  intros Hi Hnp Hs Hres Hc.
  destruct (peer_reset_reaches_handles st sid code o st' outs k r Hi Hnp Hs Hres) as (_ & _ & Hp & Hm).
  destruct (recv_reset_surfaces sid code (r_queued o) (s_state r) Hc) as ((Ha & Hb) & _ & _ & _ & Hn & He).
  split; [|split].
  - intros m. rewrite Hm. destruct m; [rewrite Ha|rewrite Hb]; reflexivity.
  - intros H. rewrite Hp. destruct (Hn H) as (_ & ->). reflexivity.
  - intros H. rewrite Hp. destruct (He H) as (_ & -> & _). reflexivity.
Qed.

Example ex_explicit_reset_after_headers :
  let st := mkC Client true true [(1, mkS 1 (Open Streaming AwaitingHeaders) true false false [QHeaders false false] None)]
                [(1, 1)] (Some 3) (Some 2) MAX_ID MAX_ID None None in
  match step st (LSendReset 1 4294967295 true) with
  | Ok st' outs => queued_all outs = [(1, QReset 4294967295)] /\
                   match kget st' 1 with Some r' => s_q r' = [QHeaders false false; QReset 4294967295] | None => False end
  | _ => False
  end.
Proof. vm_compute. auto. Qed.

Example ex_peer_reset_any_code :
  let st := mkC Client true true [(1, mkS 1 (HalfClosedLocal Streaming) false false false [] None)]
                [(1, 1)] (Some 3) (Some 2) MAX_ID MAX_ID None None in
  match step st (LRecvReset 1 3735928559 (mkR false true)) with
  | Ok st' outs => step st' (LPollRecv 1) = Ok st' [OSurface 1 (RProtoErr (EReset 1 3735928559 Remote))]
  | _ => False
  end.
Proof. vm_compute. auto. Qed.
