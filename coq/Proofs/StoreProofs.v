(* Every label preserves the invariant of the store model; the C19 theorems. *)
From H2V Require Import Base.Tac Model.Counts Model.Store Proofs.CountsProofs Proofs.StoreLists Proofs.StoreInv.
Local Open Scope N_scope.

(* the labels that carry a store::Key obtained by the caller (a Ptr it holds) *)
Definition label_key (l : slabel) : option key :=
  match l with
  | LRemove k | LPush _ k | LPushFront _ k | LHNew k | LTransitionAfter k _ => Some k
  | _ => None
  end.

(* a record only disappears when it has no handle and is in no queue *)
Definition keeps (sl sl' : list (N * rec)) : Prop :=
  forall idx r, alook idx sl = Some r -> alook idx sl' = None -> r_ref r = 0 /\ no_flags r = true.

Lemma keeps_refl sl : keeps sl sl.
Proof. intros idx r A B. congruence. Qed.

Lemma keeps_aset sl i r' : keeps sl (aset i r' sl).
Proof. intros idx r A. rewrite alook_aset. destruct (i =? idx); congruence. Qed.

Lemma keeps_adel sl i r : alook i sl = Some r -> r_ref r = 0 -> no_flags r = true -> keeps sl (adel i sl).
Proof.
  intros Hl H0 Hn idx r0 A. rewrite alook_adel. destruct (N.eqb_spec i idx) as [<-|_]; [|congruence].
  rewrite Hl in A. injection A as <-. auto.
Qed.

(* What a step guarantees: the invariant is kept, records go only when unreferenced, and of the Rust asserts /
   overflows / `dangling store key` panics only the one for the label's own key argument can fire.  The second part
   holds of every state. *)
Definition sstep_ok (st : sstate) (l : slabel) : Prop :=
  match sstep st l with
  | SOk st' _ => (SInv st -> SInv st') /\ keeps (slab st) (slab st')
  | SStuck _ => True
  | SPanic _ => SInv st -> exists k, label_key l = Some k /\ resolve st k = None
  end.

Theorem sstep_inv st l : sstep_ok st l.
Proof.
  assert (Same : (SInv st -> SInv st) /\ keeps (slab st) (slab st)) by (split; [auto|apply keeps_refl]).
  unfold sstep_ok. destruct l; cbn [sstep label_key].
  - (* counts.rs *)
    assert (E : sstep st (LCounts l) = SStuck 30 \/
                sstep st (LCounts l) = match cstep (cs st) l with
                                       | COk c outs => SOk (set_cs st c) (map OCounts outs)
                                       | CStuck n => SStuck (100 + n)
                                       | CPanic n => SPanic (100 + n)
                                       end) by (destruct l; auto).
    cbn [sstep] in E. destruct E as [-> | ->]; [exact I|].
    pose proof (cstep_inv (cs st) l) as X. destruct (cstep (cs st) l); cbn [cstep_ok] in X.
    + split; [intros H; apply sinv_set_cs; [exact H|exact (X (I_cs _ H))]|apply keeps_refl].
    + exact I.
    + intros H. destruct (X (I_cs _ H)).
  - (* Store::insert *)
    destruct (amem idx (slab st)) eqn:E1; [exact I|]. destruct (amem id (ids st)); [exact I|].
    apply amem_alook in E1. split; [intros H; apply sinv_insert; assumption|].
    intros j r A. cbn [slab set_ids set_slab alook]. destruct (idx =? j); congruence.
  - (* Ptr::unlink *)
    split; [apply sinv_unlink|apply keeps_refl].
  - (* Ptr::remove *)
    destruct (alook (fst k) (slab st)) as [r|] eqn:E1.
    2:{ intros _. exists k. unfold resolve. rewrite E1. auto. }
    destruct (r_id r =? snd k) eqn:E2; cbn [negb].
    2:{ intros _. exists k. unfold resolve. rewrite E1, E2. auto. }
    destruct ((r_ref r =? 0) && no_flags r) eqn:E3; cbn [negb]; [|exact I].
    destruct (existsb (fun e : N * N => snd e =? fst k) (ids st)) eqn:E4; [exact I|].
    apply andb_true_iff in E3. destruct E3 as (E3 & E5). apply N.eqb_eq in E3. apply N.eqb_eq in E2.
    split; [intros H; apply (sinv_del st k r); auto|apply (keeps_adel _ _ r); assumption].
    + apply resolve_spec. auto.
    + intros id A. rewrite <- not_true_iff_false, existsb_exists in E4. apply E4.
      exists (id, fst k). split; [exact (alook_In _ _ _ A)|apply N.eqb_refl].
  - (* Queue::push: the tail it links behind is a queue entry, so it resolves *)
    destruct (resolve st k) as [r|] eqn:Er; [|intros _; exists k; auto].
    destruct (r_fl r (flag_of q)) eqn:Ef; [exact Same|].
    destruct (match qlast q (qs st) with Some t => resolve st t | None => Some r end) eqn:Et.
    + split; [intros H|apply keeps_aset]. apply (sinv_push st q k r (qs st) []); auto using app_nil_r.
    + intros H. exfalso. destruct (qlast q (qs st)) as [t|] eqn:El; [|discriminate]. apply qlast_In in El.
      destruct (proj1 (proj2 (no_stale_key st H)) q t El) as (r0 & A & _). congruence.
  - (* Queue::push_front *)
    destruct (resolve st k) as [r|] eqn:Er; [|intros _; exists k; auto].
    destruct (r_fl r (flag_of q)) eqn:Ef; [exact Same|].
    split; [intros H|apply keeps_aset]. apply (sinv_push st q k r [] (qs st)); auto.
  - (* Queue::pop: the head is a queue entry *)
    destruct (qfirst q (qs st)) as [k|] eqn:Eq; [|exact Same].
    destruct (resolve st k) as [r|] eqn:Er.
    + split; [intros H; apply sinv_pop; assumption|apply keeps_aset].
    + intros H. exfalso. destruct (proj1 (proj2 (no_stale_key st H)) q k (qfirst_In _ _ _ Eq)) as (r0 & A & _). congruence.
  - (* OpaqueStreamRef::new *)
    destruct (resolve st k) as [r|] eqn:Er; [|intros _; exists k; auto].
    split; [intros H; apply sinv_hnew; assumption|apply keeps_aset].
  - (* OpaqueStreamRef::clone: the key of a live handle resolves *)
    destruct (hmem (k, serial) (handles st)) eqn:Em; cbn [negb]; [|exact I]. apply hmem_In in Em.
    destruct (resolve st k) as [r|] eqn:Er.
    + split; [intros H; apply sinv_hnew; assumption|apply keeps_aset].
    + intros H. exfalso. destruct (proj1 (no_stale_key st H) k serial Em) as (r0 & A & _). congruence.
  - (* drop_stream_ref: a live handle is counted in Inner.refs and in the ref_count of the record it resolves to *)
    destruct (hmem (k, serial) (handles st)) eqn:Em; cbn [negb]; [|exact I]. apply hmem_In in Em.
    destruct (N.eqb_spec (refs st) 0) as [E0|_].
    { intros H. exfalso. rewrite (I_refs _ H), (hdel_length _ _ Em), Nat2N.inj_succ in E0. lia. }
    destruct (resolve st k) as [r|] eqn:Er.
    2:{ intros H. exfalso. destruct (proj1 (no_stale_key st H) k serial Em) as (r0 & A & _). congruence. }
    destruct (N.eqb_spec (r_ref r) 0) as [E1|_].
    { intros H. exfalso. destruct (proj1 (no_stale_key st H) k serial Em) as (r0 & A & _ & B).
      rewrite Er in A. injection A as <-. lia. }
    split; [intros H; apply sinv_hdrop; assumption|apply keeps_aset].
  - exact Same.
  - (* Streams::clone *)
    destruct (nstreams st =? 0); [exact I|].
    split; [intros H; apply sinv_set_refs; [exact H|rewrite (I_refs _ H); lia]|apply keeps_refl].
  - (* Streams::drop *)
    destruct (N.eqb_spec (nstreams st) 0) as [|E]; [exact I|].
    destruct (N.eqb_spec (refs st) 0) as [E0|E0]; [intros H; rewrite (I_refs _ H) in E0; lia|].
    split; [intros H; apply sinv_set_refs; [exact H|rewrite (I_refs _ H); lia]|apply keeps_refl].
  - exact Same.
  - destruct (nstreams st =? 0); [exact I|exact Same].
  - (* Counts::transition_after and the release *)
    destruct (resolve st k) as [r|] eqn:Er; [|intros _; exists k; auto].
    set (cl := TransitionAfter _ _). pose proof (cstep_inv (cs st) cl) as X.
    destruct (cstep (cs st) cl) as [c1 o1|n|n]; cbn [cstep_ok] in X; [|exact I|intros H; destruct (X (I_cs _ H))].
    destruct (so_closed o && (r_ref r =? 0) && no_flags r) eqn:Erel.
    + apply andb_true_iff in Erel. destruct Erel as (Erel & Enf).
      apply andb_true_iff in Erel. destruct Erel as (-> & Eref). apply N.eqb_eq in Eref. rewrite (no_flags_false r FReset Enf). cbn [andb negb].
      split; [intros H|apply (keeps_adel _ _ r); try assumption; apply resolve_spec, Er].
      apply (sinv_del (set_cs (set_ids st (adel (r_id r) (ids st))) c1) k r); auto.
      * apply sinv_set_cs; [apply sinv_unlink; exact H|exact (X (I_cs _ H))].
      * (* the id map led to the slot only through the record's own id *)
        intros id. cbn [ids set_cs set_ids]. rewrite alook_adel.
        destruct (N.eqb_spec (r_id r) id) as [|Ne]; [discriminate|]. intros A.
        destruct (I_ids _ H id _ A) as (r0 & B & C). apply resolve_spec in Er. destruct Er as (Er & _). congruence.
    + destruct (so_closed o && negb (r_fl r FReset)); (split; [intros H|apply keeps_aset]);
        apply sinv_seen; auto using sinv_set_cs, sinv_unlink, (I_cs st).
  - (* Quiesce *)
    destruct (existsb (fun e : N * rec => r_owed (snd e) && negb (has_reason (snd e))) (slab st)) eqn:E; [exact I|].
    split; [intros H; apply sinv_quiesce; assumption|].
    intros j r A. cbn [slab set_slab]. rewrite (alook_map (fun r => with_owed r false)), A. discriminate.
Qed.

(* along ANY label sequence no Rust assert / overflow / `dangling store key` panic of the modelled code fires, except for a
   label whose own key argument (a Ptr the caller holds) does not resolve in the state it is applied to *)
Fixpoint run_ok (st : sstate) (ls : list slabel) : Prop :=
  match ls with
  | [] => True
  | l :: ls' =>
    match sstep st l with
    | SOk st1 _ => run_ok st1 ls'
    | SStuck _ => True
    | SPanic _ => exists k, label_key l = Some k /\ resolve st k = None
    end
  end.

Lemma sstep_sinv st l st' outs : SInv st -> sstep st l = SOk st' outs -> SInv st'.
Proof. intros H E. pose proof (sstep_inv st l) as X. unfold sstep_ok in X. rewrite E in X. exact (proj1 X H). Qed.

Lemma sstep_keeps st l st' outs : sstep st l = SOk st' outs -> keeps (slab st) (slab st').
Proof. intros E. pose proof (sstep_inv st l) as X. unfold sstep_ok in X. rewrite E in X. exact (proj2 X). Qed.

Lemma srun_ok ls : forall st, SInv st ->
  run_ok st ls /\ match srun st ls with inl (Some (st', _)) => SInv st' | _ => True end.
Proof.
  induction ls as [|l ls IH]; intros st H; cbn [srun run_ok]; [auto|].
  pose proof (sstep_inv st l) as X. unfold sstep_ok in X.
  destruct (sstep st l) as [st1 o1|n|n]; [|auto|auto].
  destruct (IH st1 (proj1 X H)) as (A & B). split; [exact A|].
  destruct (srun st1 ls) as [[[st2 os]|]|[k r]]; auto.
Qed.

(* transition_after on a closed record without handle, queue membership or reset expiry removes it *)
Theorem released_is_removed st k o r st' outs :
  SInv st -> resolve st k = Some r ->
  so_closed o = true -> r_ref r = 0 -> no_flags r = true ->
  sstep st (LTransitionAfter k o) = SOk st' outs ->
  alook (fst k) (slab st') = None /\ resolve st' k = None /\ alook (r_id r) (ids st') = None /\
  outs = [OBool true; OBool true] /\
  (so_sched o = false -> cmem (r_serial r) (counted (cs st')) = false /\
     (cmem (r_serial r) (counted (cs st)) = true ->
        if so_local o then (num_send (cs st') = num_send (cs st) - 1)%Z else (num_recv (cs st') = num_recv (cs st) - 1)%Z)).
Proof.
  intros H Hr Hc H0 Hn E. cbn [sstep] in E. rewrite Hr in E.
  destruct (cstep (cs st) _) as [c1 o1|n|n] eqn:Ec; [|discriminate|discriminate].
  rewrite Hc, H0, Hn, (no_flags_false r FReset Hn), N.eqb_refl in E. cbn [andb negb] in E.
  injection E as <- <-. unfold resolve. cbn [slab ids cs set_slab set_ids set_cs].
  rewrite !alook_adel, !N.eqb_refl. repeat (split; [reflexivity|]).
  intros Hs. destruct (C05_slot_recycled (cs st) (r_serial r) _ c1 o1 (I_cs _ H) Ec Hc Hs) as (Y1 & Y2 & _).
  split; [exact Y1|]. intros Hm. specialize (Y2 Hm). cbn [t_local] in Y2. destruct (so_local o); apply Y2.
Qed.

(* every stored record has a reason to be kept, or transition_after still owes it a look; at the end of a
   lock-atomic section (Quiesce) nothing is owed *)
Theorem kept_has_reason st : SInv st ->
  forall idx r, alook idx (slab st) = Some r ->
  0 < r_ref r \/ (exists f, r_fl r f = true) \/ r_closed r = false \/ r_owed r = true.
Proof.
  intros H idx r A. destruct (I_reason _ H idx r A) as [B|B]; [|auto].
  apply has_reason_iff in B. destruct B as [B|[B|B]]; auto.
Qed.

Theorem kept_has_reason_quiescent st st' outs : SInv st -> sstep st LQuiesce = SOk st' outs ->
  forall idx r, alook idx (slab st') = Some r ->
  r_owed r = false /\ (0 < r_ref r \/ (exists f, r_fl r f = true) \/ r_closed r = false).
Proof.
  intros H E idx r A. pose proof (sstep_sinv _ _ _ _ H E) as H'.
  assert (O : r_owed r = false).
  { cbn [sstep] in E. destruct (existsb _ _); [discriminate|]. injection E as <- _. cbn [slab set_slab] in A.
    rewrite (alook_map (fun r => with_owed r false)) in A. destruct (alook idx (slab st)); [|discriminate].
    injection A as <-. reflexivity. }
  split; [exact O|]. destruct (kept_has_reason st' H' idx r A) as [B|[B|[B|B]]]; auto. congruence.
Qed.

Lemma ccount_total l : (ccount true l + ccount false l = Z.of_nat (length l))%Z.
Proof.
  induction l as [|[k b] l IH]; cbn [ccount length]; [reflexivity|]. rewrite Nat2Z.inj_succ. destruct b; cbn [Bool.eqb]; lia.
Qed.

(* the idle-close decision of a client connection *)
Theorem idle_client_closes st st' outs : SInv st -> sstep st LMaybeClose = SOk st' outs ->
  st' = st /\
  (handles st = [] -> nstreams st = 1 -> counted (cs st) = [] -> outs = [OGoAwayNow]) /\
  (handles st <> [] \/ 1 < nstreams st \/ counted (cs st) <> [] -> outs = []).
Proof.
  intros H E. cbn [sstep] in E. destruct (N.eqb_spec (nstreams st) 0) as [|E0]; [discriminate|].
  injection E as <- <-. split; [reflexivity|].
  destruct (I_cs _ H) as (C1 & C2 & _). pose proof (ccount_total (counted (cs st))) as T.
  pose proof (ccount_nonneg true (counted (cs st))). pose proof (ccount_nonneg false (counted (cs st))).
  pose proof (I_refs _ H) as R. unfold busy, has_streams. split.
  - intros Hh Hn Hc. rewrite Hh in R. rewrite Hc in C1, C2. cbn [length ccount] in R, C1, C2.
    destruct (_ || _) eqn:B; [exfalso; lia|reflexivity].
  - intros D. destruct (_ || _) eqn:B; [reflexivity|exfalso]. destruct D as [D|[D|D]].
    + destruct (handles st); [congruence|]. cbn [length] in R. lia.
    + lia.
    + destruct (counted (cs st)); [congruence|]. cbn [length] in T. lia.
Qed.

Lemma wake_iff (b : bool) : (if b then [OWakeConn] else []) = [OWakeConn] <-> b = true.
Proof. destruct b; split; (reflexivity || discriminate). Qed.

Theorem handle_drop_wakes st k s c st1 o1 st2 o2 :
  sstep st (LHDrop k s c) = SOk st1 o1 -> sstep st1 LHDropEnd = SOk st2 o2 ->
  refs st1 = refs st - 1 /\ st2 = st1 /\ (o2 = [OWakeConn] <-> refs st1 = 1).
Proof.
  intros E1 E2. cbn [sstep] in E1, E2. injection E2 as <- <-.
  destruct (negb (hmem (k, s) (handles st))); [discriminate|]. destruct (refs st =? 0); [discriminate|].
  destruct (resolve st k) as [r|]; [|discriminate]. destruct (r_ref r =? 0); [discriminate|].
  injection E1 as <- _. cbn [refs set_refs]. split; [reflexivity|]. split; [reflexivity|]. rewrite wake_iff. apply N.eqb_eq.
Qed.

(* the first wake-up of drop_stream_ref: the last handle of a closed stream *)
Theorem handle_drop_closed_wakes st k s c st' outs r :
  sstep st (LHDrop k s c) = SOk st' outs -> resolve st k = Some r ->
  (outs = [OWakeConn] <-> (r_ref r = 1 /\ c = true)).
Proof.
  intros E Hr. cbn [sstep] in E. rewrite Hr in E.
  destruct (negb (hmem (k, s) (handles st))); [discriminate|]. destruct (refs st =? 0); [discriminate|].
  destruct (N.eqb_spec (r_ref r) 0) as [|E0]; [discriminate|]. injection E as _ <-.
  rewrite wake_iff, andb_true_iff, N.eqb_eq. split; intros (A & B); (split; [lia|exact B]).
Qed.

(* the slot of the locally-reset count comes back when a counted record has left the expiry queue *)
Theorem reset_slot_returned st k o r st' outs :
  sstep st (LTransitionAfter k o) = SOk st' outs -> resolve st k = Some r ->
  so_reset_counted o = true -> r_fl r FReset = false ->
  (num_lreset (cs st') = num_lreset (cs st) - 1)%Z.
Proof.
  intros E Hr Hc Hf. cbn [sstep] in E. rewrite Hr in E.
  destruct (cstep (cs st) _) as [c1 o1|n|n] eqn:Ec; [|discriminate|discriminate].
  assert (X : cs st' = c1).
  { destruct (so_closed o && (r_ref r =? 0) && no_flags r); injection E as <- _;
      destruct (so_closed o && negb (r_fl r FReset)); reflexivity. }
  rewrite X, (reset_slot_returned (cs st) (r_serial r) _ c1 o1 Ec). cbn [t_pending_reset t_reset_counted].
  rewrite Hf, Hc. reflexivity.
Qed.

(* non-vacuity: a request is opened, its two handles are dropped, the record is released and removed; then the last request
   handle goes and the connection decides to close *)
Definition demo_slabels : list slabel :=
  [ LSClone; LInsert 0 7 1; LHNew (0, 1); LHClone (0, 1) 7; LPush KSend (0, 1);
    LTransitionAfter (0, 1) (mkSO false false false true); LQuiesce;
    LMaybeClose;
    LPop KSend; LTransitionAfter (0, 1) (mkSO false false false true); LQuiesce;
    LHDrop (0, 1) 7 false; LTransitionAfter (0, 1) (mkSO false false false true); LHDropEnd; LQuiesce;
    LHDrop (0, 1) 7 true; LTransitionAfter (0, 1) (mkSO true false false true); LHDropEnd; LQuiesce;
    LSDrop; LMaybeClose ].

Example demo_store :
  match srun (sinit (Some 5%Z) None 10%Z 20%Z None) demo_slabels with
  | inl (Some (st, outs)) =>
    slab st = [] /\ ids st = [] /\ refs st = 1 /\ handles st = [] /\
    nth 7 outs [] = [] /\ nth 15 outs [] = [OWakeConn] /\ nth 16 outs [] = [OBool true; OBool true] /\
    nth 19 outs [] = [OWakeConn] /\ nth 20 outs [] = [OGoAwayNow]
  | _ => False
  end.
Proof. vm_compute. repeat split; reflexivity. Qed.

(* slot reuse: the index of a removed record is given to a new record with another id; a key kept from the old record does
   not reach the new one *)
Example demo_slot_reuse :
  match srun (sinit None None 10%Z 20%Z None)
             [ LInsert 0 1 1; LTransitionAfter (0, 1) (mkSO true false false true); LInsert 0 2 3 ] with
  | inl (Some (st, _)) => resolve st (0, 1) = None /\ exists r, resolve st (0, 3) = Some r /\ r_serial r = 2
  | _ => False
  end.
Proof. vm_compute. split; [reflexivity|]. eexists. split; reflexivity. Qed.

(* KF-C19-3: a pop from pending_capacity that is not followed by transition_after, on a record whose last reason it was, is
   rejected by the model at the end of the section (Quiesce guard, Stuck 9); the implementation keeps the record for ever *)
Example known_evict_refuted :
  srun (sinit None None 0%Z 20%Z None)
       [ LInsert 0 1 1; LPush KCap (0, 1); LTransitionAfter (0, 1) (mkSO true false false true); LQuiesce;
         LPop KCap; LQuiesce ] = inr (5, SStuck 9).
Proof. vm_compute. reflexivity. Qed.
