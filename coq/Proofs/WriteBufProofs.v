(* C12, write half: proofs about Model/WriteBuf.v (the model of h2's codec/framed_write.rs). *)
From H2V Require Import Base.Tac Base.Bytes Gen.FrameConsts Ref.Rfc9113Frame Model.FrameCodec Model.WriteBuf
  Proofs.FrameCodecProofs.
Local Open Scope N_scope.

Lemma lenN_zero l : lenN l = 0 -> l = [].
Proof. destruct l as [|x l]; [reflexivity|]. rewrite lenN_cons. lia. Qed.

Lemma olen_lenN l : olen l = lenN l.
Proof. reflexivity. Qed.

Lemma drop_dropN n l : drop n l = dropN n l.
Proof. reflexivity. Qed.

Lemma length_dropN_lt n l : 1 <= n -> n < lenN l -> (length (dropN n l) < length l)%nat.
Proof. unfold lenN, dropN. rewrite skipn_length. lia. Qed.

Lemma takeN_all n l : lenN l <= n -> takeN n l = l.
Proof. unfold lenN, takeN. intros H. apply firstn_all2. lia. Qed.

Lemma dropN_app n a b : dropN n (a ++ b) = dropN n a ++ dropN (n - lenN a) b.
Proof.
  unfold dropN, lenN. rewrite skipn_app.
  replace (N.to_nat n - length a)%nat with (N.to_nat (n - N.of_nat (length a))) by lia.
  reflexivity.
Qed.

Lemma dropN_app_le n a b : n <= lenN a -> dropN n (a ++ b) = dropN n a ++ b.
Proof. intros H. rewrite dropN_app. replace (n - lenN a) with 0 by lia. reflexivity. Qed.

Lemma takeN_app_le n a b : n <= lenN a -> takeN n (a ++ b) = takeN n a.
Proof.
  unfold takeN, lenN. intros H. rewrite firstn_app.
  replace (N.to_nat n - length a)%nat with 0%nat by lia.
  cbn [firstn]. apply app_nil_r.
Qed.

Lemma dropN_dropN a b l : dropN a (dropN b l) = dropN (b + a) l.
Proof.
  unfold dropN. rewrite N2Nat.inj_add. generalize (N.to_nat b). intros y. revert l.
  induction y as [|y IH]; intros [|x l]; cbn [skipn Nat.add]; auto.
  destruct (N.to_nat a); reflexivity.
Qed.

Lemma is_prefix_app a b : is_prefix a (a ++ b) = true.
Proof.
  induction a as [|x a IH]; [reflexivity|].
  cbn [app is_prefix]. rewrite N.eqb_refl, IH. reflexivity.
Qed.

Lemma lenN_head_encode k fl sid len : lenN (head_encode k fl sid len) = 9.
Proof. reflexivity. Qed.

Lemma length_head_encode k fl sid len : length (head_encode k fl sid len) = 9%nat.
Proof. reflexivity. Qed.

Lemma declared_length_head k fl sid len x :
  len < 16777216 -> declared_length (head_encode k fl sid len ++ x) = Some len.
Proof.
  intros H. unfold head_encode, enc_u24. cbn [app declared_length]. f_equal. lia.
Qed.

Inductive frames_le (max : N) : list N -> Prop :=
| frames_le_nil : frames_le max []
| frames_le_cons k fl sid payload more :
    lenN payload <= max -> frames_le max more ->
    frames_le max (head_encode k fl sid (lenN payload) ++ payload ++ more).

Lemma frames_le_one max k fl sid len payload more :
  len = lenN payload -> len <= max -> frames_le max more ->
  frames_le max ((head_encode k fl sid len ++ payload) ++ more).
Proof. intros -> H1 H2. rewrite <- app_assoc. constructor; assumption. Qed.

Lemma frames_le_single max k fl sid len payload :
  len = lenN payload -> len <= max ->
  frames_le max (head_encode k fl sid len ++ payload).
Proof.
  intros Hl H1. rewrite <- (app_nil_r (_ ++ payload)).
  apply frames_le_one; [exact Hl|exact H1|constructor].
Qed.

Lemma payload_lengths_frame fuel k fl sid payload more :
  lenN payload < 16777216 ->
  payload_lengths (S fuel) (head_encode k fl sid (lenN payload) ++ payload ++ more) =
    option_map (cons (lenN payload)) (payload_lengths fuel more).
Proof.
  intros H. pose proof (declared_length_head k fl sid (lenN payload) (payload ++ more) H) as Hd.
  destruct (head_encode k fl sid (lenN payload) ++ payload ++ more) as [|x bs] eqn:E; [discriminate E|].
  cbn [payload_lengths]. rewrite Hd, <- E, app_assoc.
  change olen with lenN. change drop with dropN.
  rewrite dropN_app_le, dropN_all by (rewrite lenN_app, lenN_head_encode; lia). cbn [app].
  rewrite !lenN_app, lenN_head_encode.
  destruct (9 + lenN payload <=? 9 + lenN payload + lenN more) eqn:Ele; [reflexivity|].
  apply N.leb_gt in Ele. lia.
Qed.

Lemma frames_le_all_payloads_le max bs :
  max <= MAX_MAX_FRAME_SIZE -> frames_le max bs -> all_payloads_le max bs = true.
Proof.
  intros Hmax Hf. unfold MAX_MAX_FRAME_SIZE in Hmax. unfold all_payloads_le.
  assert (H : forall fuel, (length bs < fuel)%nat ->
            exists ls, payload_lengths fuel bs = Some ls /\ forallb (fun l => l <=? max) ls = true).
  { induction Hf as [|k fl sid payload more Hle Hmore IH]; intros [|fuel] Hfuel; try lia.
    - exists []. split; reflexivity.
    - rewrite payload_lengths_frame by lia.
      destruct (IH fuel) as (ls & -> & Hall); [rewrite !app_length, length_head_encode in Hfuel; lia|].
      exists (lenN payload :: ls). split; [reflexivity|].
      cbn [forallb]. rewrite Hall, andb_true_r. apply N.leb_le. exact Hle. }
  destruct (H (S (length bs))) as (ls & -> & Hall); [lia|exact Hall].
Qed.

Lemma continuation_encode_eq max sid rest :
  max <= MAX_MAX_FRAME_SIZE ->
  continuation_encode max sid rest =
    if max <? lenN rest
    then Ok (head_encode kind_continuation (headers_END_HEADERS - headers_END_HEADERS) sid max
               ++ takeN max rest, Some (dropN max rest))
    else Ok (head_encode kind_continuation headers_END_HEADERS sid (lenN rest) ++ rest, None).
Proof.
  intros H2. unfold continuation_encode. destruct (N.ltb_spec max (lenN rest)).
  - rewrite header_block_encode_split by (assumption || reflexivity || apply N.le_0_l).
    rewrite N.sub_0_r. reflexivity.
  - apply header_block_encode_whole; assumption.
Qed.

Lemma continuations_encode_spec max sid :
  1 <= max -> max <= MAX_MAX_FRAME_SIZE ->
  forall n rest, (length rest < n)%nat ->
    exists more, frames_le max more /\
      forall f, (length rest < f)%nat -> continuations_encode f max sid rest = EOk more.
Proof.
  intros H1 H2. induction n as [|n IH]; intros rest Hn; [lia|].
  destruct (max <? lenN rest) eqn:E.
  - pose proof (length_dropN_lt max rest H1 (proj1 (N.ltb_lt _ _) E)) as Hlt.
    destruct (IH (dropN max rest)) as (more & Hfr & Hmore); [lia|].
    eexists. split.
    2:{ intros [|f] Hf; [lia|]. cbn [continuations_encode].
        rewrite continuation_encode_eq, E, Hmore by (assumption || lia). reflexivity. }
    apply frames_le_one; [rewrite lenN_takeN; lia|lia|exact Hfr].
  - eexists. split.
    2:{ intros [|f] Hf; [lia|]. cbn [continuations_encode].
        rewrite continuation_encode_eq, E by assumption. reflexivity. }
    apply frames_le_single; [reflexivity|apply N.ltb_ge; exact E].
Qed.

Lemma continuations_encode_step max sid rest p :
  1 <= max -> max <= MAX_MAX_FRAME_SIZE ->
  continuations_encode (S (length rest)) max sid rest = EOk p ->
  exists bytes cont, continuation_encode max sid rest = Ok (bytes, cont) /\ 9 <= lenN bytes /\
                     with_continuations max sid (Ok (bytes, cont)) = EOk p.
Proof.
  intros H1 H2. cbn [continuations_encode]. rewrite continuation_encode_eq by assumption.
  destruct (max <? lenN rest) eqn:E; intros Hp; eexists _, _; (split; [reflexivity|]);
    (split; [rewrite lenN_app, lenN_head_encode; lia|]); [|exact Hp].
  apply N.ltb_lt in E. pose proof (length_dropN_lt max rest H1 E) as Hlt.
  destruct (continuations_encode_spec max sid H1 H2 _ (dropN max rest) Hlt) as (more & _ & Hmore).
  cbn [with_continuations]. rewrite Hmore in Hp |- * by lia. exact Hp.
Qed.

Lemma with_continuations_framed max k flags sid prefix block bs :
  1 <= max -> max <= MAX_MAX_FRAME_SIZE -> lenN prefix <= max ->
  has_bit flags headers_END_HEADERS = true ->
  with_continuations max sid (header_block_encode k flags sid prefix block (max + HEADER_LEN)) = EOk bs ->
  frames_le max bs.
Proof.
  intros H1 H2 Hpre Hbit. destruct (N.le_gt_cases (lenN prefix + lenN block) max) as [E|E].
  - rewrite header_block_encode_whole by assumption. intros Hw. injection Hw as <-.
    apply frames_le_single; [symmetry; apply lenN_app|exact E].
  - rewrite header_block_encode_split by assumption. cbn [with_continuations].
    destruct (continuations_encode_spec max sid H1 H2 _ (dropN (max - lenN prefix) block) (Nat.lt_succ_diag_r _))
      as (more & Hfr & Hmore).
    rewrite Hmore by lia. intros Hw. injection Hw as <-.
    apply frames_le_one; [rewrite lenN_app, lenN_takeN; lia|lia|exact Hfr].
Qed.

(* [frame_wf] is used only for the sizes nobody checks on the send path (DATA is checked by
   Encoder::buffer, see C12_send_limit_data_enforced; GOAWAY debug data by nobody) and for the
   8 octets of PING.  [42 <= max]: a SETTINGS frame with all seven parameters has a payload of 42 octets,
   whatever [max] is (C12_send_limit_bound_tight) *)
Theorem encode_framed : forall max f bs,
  42 <= max -> max <= MAX_MAX_FRAME_SIZE ->
  frame_wf max f = true -> encode max f = EOk bs ->
  frames_le max bs.
Proof.
  intros max f bs H42 Hmax Hwf He.
  assert (H1 : 1 <= max) by lia.
  destruct f as [sid flags pad data|sid flags dep block|sid dep|sid flags promised block|s
                |ack payload|last code debug|sid inc|sid code]; cbn [encode frame_wf] in He, Hwf;
    rewrite ?andb_true_iff in Hwf; try (injection He as <-).
  - apply frames_le_single; [reflexivity|]. apply N.leb_le, Hwf.
  - unfold headers_encode in He.
    destruct (has_bit flags headers_END_HEADERS) eqn:Hbit; [|discriminate He].
    apply (with_continuations_framed max kind_headers flags sid [] block bs H1 Hmax); auto.
    rewrite lenN_nil. lia.
  - discriminate He.
  - unfold push_promise_encode in He.
    destruct (has_bit flags headers_END_HEADERS) eqn:Hbit; [|discriminate He].
    apply (with_continuations_framed max kind_push_promise flags sid (enc_u32 promised) block bs H1 Hmax); auto.
    change (lenN (enc_u32 promised)) with 4. lia.
  - apply frames_le_single; [symmetry; apply lenN_pairs_encode|].
    pose proof (length_settings_pairs s). lia.
  - apply frames_le_single; [reflexivity|].
    destruct Hwf as [Hwf _]. apply N.eqb_eq in Hwf. lia.
  - apply frames_le_single.
    + rewrite !lenN_app. change (lenN (enc_u32 last)) with 4. change (lenN (enc_u32 code)) with 4. lia.
    + apply N.leb_le, Hwf.
  - apply frames_le_single; [reflexivity|lia].
  - apply frames_le_single; [reflexivity|lia].
Qed.

(* where h2 enforces the limit for DATA: Encoder::buffer returns UserError::PayloadTooBig *)
Theorem C12_send_limit_data_enforced : forall st sid fl pad data st',
  buffer st (FData sid fl pad data) = BOk st' -> lenN data <= w_max st.
Proof.
  intros st sid fl pad data st' Hb. unfold buffer in Hb.
  destruct (negb (has_capacity st)); [discriminate Hb|].
  destruct (w_max st <? lenN data) eqn:E; [discriminate Hb|].
  apply N.ltb_ge in E. exact E.
Qed.

Lemma buffer_data_too_big : forall st sid fl pad data,
  has_capacity st = true -> w_max st < lenN data ->
  buffer st (FData sid fl pad data) = BPayloadTooBig.
Proof.
  intros st sid fl pad data Hcap Hbig. unfold buffer. rewrite Hcap. cbn [negb].
  apply N.ltb_lt in Hbig. rewrite Hbig. reflexivity.
Qed.

Definition winv (max : N) (st : wstate) : Prop :=
  w_max st = max /\ w_pos st <= lenN (w_buf st) /\ 1 <= w_chain st /\
  match w_next st with
  | Some (NData _ _ payload) => payload = [] -> buf_rest st = []
  | _ => True
  end.

Lemma winv_winit vectored max : winv max (winit vectored max).
Proof.
  unfold winv, winit. cbn [w_max w_pos w_buf w_chain w_next].
  split; [reflexivity|]. split; [rewrite lenN_nil; lia|]. split; [|exact I].
  destruct vectored; unfold CHAIN_THRESHOLD, CHAIN_THRESHOLD_WITHOUT_VECTORED_IO; lia.
Qed.

Lemma pending_winit vectored max : pending (winit vectored max) = EOk [].
Proof. reflexivity. Qed.

Lemma offered_prefix st p : pending st = EOk p -> exists x, p = offered st ++ x.
Proof.
  unfold pending, offered.
  destruct (w_next st) as [[sid fl payload|sid rest]|].
  - intros Hp. injection Hp as <-.
    destruct (w_vectored st); [exists []; symmetry; apply app_nil_r|].
    destruct (lenN (buf_rest st) =? 0) eqn:E; [|exists payload; reflexivity].
    apply N.eqb_eq, lenN_zero in E. rewrite E. exists []. symmetry. apply app_nil_r.
  - destruct (continuations_encode _ _ _ _) as [more| | |]; intros Hp; try discriminate Hp.
    injection Hp as <-. exists more. reflexivity.
  - intros Hp. injection Hp as <-. exists []. symmetry. apply app_nil_r.
Qed.

Lemma buf_rest_advanced st k cap nx :
  buf_rest (set_w st (w_buf st) (w_pos st + k) cap nx) = dropN k (buf_rest st).
Proof. symmetry. apply dropN_dropN. Qed.

Lemma advance_spec max st p n :
  winv max st -> pending st = EOk p -> n <= lenN (offered st) ->
  winv max (advance st n) /\
  pending (advance st n) = EOk (dropN n p) /\
  takeN n (offered st) = takeN n p.
Proof.
  intros (Hm & Hpos & Hch & Hnx) Hp Hn.
  pose proof (lenN_dropN (w_pos st) (w_buf st)) as Hlen. fold (buf_rest st) in Hlen.
  split; [|split].
  - unfold winv, advance.
    destruct (w_next st) as [[sid fl payload|sid rest]|]; rewrite buf_rest_advanced;
      cbn [set_w w_max w_pos w_buf w_chain w_next].
    + split; [exact Hm|]. split; [lia|]. split; [exact Hch|].
      (* nothing left of the payload: then nothing left of the buffer *)
      intros Hd. apply (f_equal lenN) in Hd. rewrite lenN_dropN, lenN_nil in Hd.
      apply dropN_all. destruct payload as [|b payload].
      * rewrite (Hnx eq_refl), lenN_nil. lia.
      * rewrite lenN_cons in Hd. lia.
    + repeat split; (assumption || lia).
    + repeat split; (assumption || lia).
  - unfold pending in Hp. unfold offered in Hn. unfold pending, advance.
    destruct (w_next st) as [[sid fl payload|sid rest]|]; rewrite buf_rest_advanced; cbn [set_w w_max w_next].
    + injection Hp as <-. rewrite dropN_app.
      destruct (N.min_spec n (lenN (buf_rest st))) as [[Hlt ->]|[Hge ->]].
      * do 3 f_equal. lia.
      * rewrite !(dropN_all (buf_rest st)) by lia. reflexivity.
    + destruct (continuations_encode _ _ _ _) as [more| | |]; try discriminate Hp.
      injection Hp as <-. rewrite N.min_l, dropN_app_le by exact Hn. reflexivity.
    + injection Hp as <-. rewrite N.min_l by exact Hn. reflexivity.
  - destruct (offered_prefix st p Hp) as [x ->]. symmetry. apply takeN_app_le. exact Hn.
Qed.

Lemma settle_spec max st p :
  1 <= max -> max <= MAX_MAX_FRAME_SIZE ->
  winv max st -> pending st = EOk p ->
  (exists st', settle st = SDone st' /\ winv max st' /\ p = [] /\ pending st' = EOk [])
  \/ (exists st1, settle st = SBusy st1 /\ winv max st1 /\ pending st1 = EOk p).
Proof.
  intros Hmax1 Hmax2 Hinv Hp.
  unfold settle. destruct (is_empty st) eqn:Hemp; [|right; eauto].
  destruct Hinv as (Hm & Hpos & Hch & Hnx).
  (* UBreak: the frame is dropped, and nothing was owed *)
  assert (Hdone : p = [] -> exists st', SDone (set_w st [] 0 (w_cap st) None) = SDone st' /\
                                        winv max st' /\ p = [] /\ pending st' = EOk []).
  { intros ->. eexists. split; [reflexivity|]. split; [|split; reflexivity].
    unfold winv, set_w; cbn [w_max w_pos w_buf w_chain w_next].
    rewrite lenN_nil. repeat split; (assumption || lia). }
  unfold unset_frame. unfold is_empty in Hemp. unfold pending in Hp.
  destruct (w_next st) as [[sid fl payload|sid rest]|].
  2,3: apply N.leb_le, (dropN_all (w_buf st)) in Hemp; fold (buf_rest st) in Hemp; rewrite Hemp in Hp.
  - (* Next::Data, payload written *)
    left. apply Hdone. apply N.eqb_eq, lenN_zero in Hemp. subst payload.
    rewrite (Hnx eq_refl) in Hp. injection Hp as <-. reflexivity.
  - (* Next::Continuation: the next CONTINUATION frame is encoded *)
    right. rewrite Hm in Hp |- *.
    destruct (continuations_encode _ _ _ _) as [more| | |] eqn:Hc; try discriminate Hp.
    injection Hp as <-.
    destruct (continuations_encode_step max sid rest more Hmax1 Hmax2 Hc) as (bytes & cont & -> & H9 & Hw).
    match goal with |- exists st1, (if is_empty ?s then _ else _) = _ /\ _ => set (st1 := s) end.
    assert (He : is_empty st1 = false).
    { unfold is_empty, st1, set_w; cbn [w_next w_buf w_pos].
      destruct cont; apply N.leb_gt; lia. }
    rewrite He. exists st1. split; [reflexivity|]. split.
    + unfold winv, st1, set_w; cbn [w_max w_pos w_buf w_chain w_next].
      repeat split; try (assumption || lia). destruct cont; exact I.
    + rewrite <- Hw. unfold pending, st1, set_w, buf_rest; cbn [w_next w_max w_pos w_buf].
      rewrite Hm. destruct cont; reflexivity.
  - (* nothing in flight, buffer written *)
    left. apply Hdone. injection Hp as <-. reflexivity.
Qed.

Lemma settle_never_diverges max st p :
  1 <= max -> max <= MAX_MAX_FRAME_SIZE ->
  winv max st -> pending st = EOk p ->
  settle st <> SDiverge /\ settle st <> SPanic.
Proof.
  intros H1 H2 Hinv Hp.
  destruct (settle_spec max st p H1 H2 Hinv Hp) as [(st' & -> & _)|(st1 & -> & _)];
    split; discriminate.
Qed.

Lemma flush_spec max :
  1 <= max -> max <= MAX_MAX_FRAME_SIZE ->
  forall script st p st' ws r rest,
    winv max st -> pending st = EOk p ->
    flush st script = (st', ws, r, rest) ->
    winv max st' /\
    exists p', pending st' = EOk p' /\ concat ws ++ p' = p /\
               (r = FReady -> p' = []) /\ r <> FDiverge /\ r <> FPanic.
Proof.
  intros Hmax1 Hmax2.
  induction script as [|t script IH]; intros st p st' ws r rest Hinv Hp Hf; cbn [flush] in Hf;
    (destruct (settle_spec max st p Hmax1 Hmax2 Hinv Hp)
       as [(s & Hs & Hi & -> & Hps)|(s & Hs & Hi & Hps)]; rewrite Hs in Hf).
  (* goals: script = [] settled / busy, script = t :: _ settled / busy; the last by cases on t *)
  4: destruct t as [k| | |]; [destruct (N.min k (lenN (offered s)) =? 0) eqn:En|..].
  5:{ (* TAccept k, the transport accepts n >= 1 octets *)
    apply N.eqb_neq in En.
    destruct (flush (advance s (N.min k (lenN (offered s)))) script) as [[[st2 ws2] r2] rest2] eqn:Hf2.
    injection Hf as <- <- <- <-.
    destruct (advance_spec max s p (N.min k (lenN (offered s))) Hi Hps) as (Hia & Hpa & Htk); [lia|].
    destruct (IH _ _ _ _ _ _ Hia Hpa Hf2) as (Hi2 & p2 & Hp2 & Hcat & Hrest).
    split; [exact Hi2|]. exists p2. split; [exact Hp2|]. split; [|exact Hrest].
    cbn [concat]. rewrite <- app_assoc, Hcat, Htk. apply takeN_dropN. }
  (* everywhere else nothing is written and the settled state is returned *)
  all: injection Hf as <- <- <- <-; split; [exact Hi|]; eexists; split; [exact Hps|];
       repeat split; discriminate.
Qed.

Lemma flush_ready_drained max st p script st' ws rest :
  1 <= max -> max <= MAX_MAX_FRAME_SIZE ->
  winv max st -> pending st = EOk p ->
  flush st script = (st', ws, FReady, rest) ->
  pending st' = EOk [].
Proof.
  intros H1 H2 Hinv Hp Hf.
  destruct (flush_spec max H1 H2 script st p st' ws FReady rest Hinv Hp Hf)
    as (_ & p' & Hp' & _ & Hr & _).
  rewrite Hp', (Hr eq_refl). reflexivity.
Qed.

Lemma poll_ready_spec max :
  1 <= max -> max <= MAX_MAX_FRAME_SIZE ->
  forall script st p st' ws r rest,
    winv max st -> pending st = EOk p ->
    poll_ready st script = (st', ws, r, rest) ->
    winv max st' /\
    exists p', pending st' = EOk p' /\ concat ws ++ p' = p /\ r <> FDiverge /\ r <> FPanic.
Proof.
  intros Hmax1 Hmax2 script st p st' ws r rest Hinv Hp Hpr.
  unfold poll_ready in Hpr.
  destruct (has_capacity st).
  - injection Hpr as <- <- <- <-. split; [exact Hinv|]. exists p. repeat split; (assumption || discriminate).
  - destruct (flush st script) as [[[st1 ws1] r1] rest1] eqn:Hf.
    destruct (flush_spec max Hmax1 Hmax2 script st p st1 ws1 r1 rest1 Hinv Hp Hf)
      as (Hi1 & p1 & Hp1 & Hcat & _ & Hnd & Hnp).
    assert (Hr : r <> FDiverge /\ r <> FPanic /\ (st', ws) = (st1, ws1)).
    { destruct r1; injection Hpr as <- <- <- <-; repeat split; try assumption.
      all: destruct (has_capacity st1); discriminate. }
    destruct Hr as (Hrd & Hrp & Hst). injection Hst as -> ->.
    split; [exact Hi1|]. exists p1. repeat split; assumption.
Qed.

(* [injection] on such an equation would normalise the state, [put_limited 200] included *)
Lemma BOk_inj a b : BOk a = BOk b -> a = b.
Proof. intros H. injection H as H. exact H. Qed.

Lemma append_spec max st bytes cap nx :
  winv max st ->
  match nx with Some (NData _ _ payload) => payload <> [] | _ => True end ->
  winv max (set_w st (w_buf st ++ bytes) (w_pos st) cap nx) /\
  buf_rest (set_w st (w_buf st ++ bytes) (w_pos st) cap nx) = buf_rest st ++ bytes.
Proof.
  intros (Hm & Hpos & Hch & _) Hnx. split.
  - unfold winv, set_w; cbn [w_max w_pos w_buf w_chain w_next].
    split; [exact Hm|]. split; [rewrite lenN_app; lia|]. split; [exact Hch|].
    destruct nx as [[sid fl payload|sid rest]|]; try exact I. intros Hnil. contradiction.
  - apply dropN_app_le. exact Hpos.
Qed.

Lemma append_direct_spec max st bytes pieces st' :
  winv max st -> append_direct st bytes pieces None = BOk st' ->
  winv max st' /\ pending st' = EOk (buf_rest st ++ bytes).
Proof.
  intros Hinv Ha. apply BOk_inj in Ha. subst st'.
  destruct (append_spec max st bytes (puts_direct (w_cap st) (lenN (w_buf st)) pieces) None Hinv I) as [Hi Hr].
  split; [exact Hi|]. unfold pending. rewrite Hr. reflexivity.
Qed.

Lemma append_limited_spec max st r sid st' :
  1 <= max -> max <= MAX_MAX_FRAME_SIZE ->
  winv max st -> append_limited st r sid = BOk st' ->
  winv max st' /\
  exists e, with_continuations max sid r = EOk e /\ pending st' = EOk (buf_rest st ++ e).
Proof.
  intros Hmax1 Hmax2 Hinv Ha.
  destruct r as [[bytes cont]|e|]; cbn [append_limited] in Ha; try discriminate Ha.
  apply BOk_inj in Ha. subst st'.
  destruct (append_spec max st bytes (put_limited 200 (w_cap st) (lenN (w_buf st)) (lenN bytes))
              (option_map (NCont sid) cont) Hinv) as [Hi Hr]; [destruct cont; exact I|].
  split; [exact Hi|]. unfold pending. rewrite Hr. destruct Hinv as (Hm & _).
  destruct cont as [rest|]; cbn [option_map set_w w_next w_max with_continuations]; [|eauto].
  destruct (continuations_encode_spec max sid Hmax1 Hmax2 _ rest (Nat.lt_succ_diag_r _))
    as (more & _ & Hmore).
  rewrite Hm, Hmore, <- app_assoc by lia. eauto.
Qed.

(* Encoder::buffer appends exactly the encoding of the frame to what is owed *)
Lemma buffer_spec max st p f st' :
  1 <= max -> max <= MAX_MAX_FRAME_SIZE ->
  winv max st -> pending st = EOk p -> buffer st f = BOk st' ->
  winv max st' /\ exists e, encode max f = EOk e /\ pending st' = EOk (p ++ e).
Proof.
  intros Hmax1 Hmax2 Hinv Hp Hb.
  unfold buffer in Hb. destruct (has_capacity st) eqn:Hcap; cbn [negb] in Hb; [|discriminate Hb].
  unfold has_capacity in Hcap. unfold pending in Hp.
  destruct (w_next st); [discriminate Hcap|]. injection Hp as <-.
  pose proof Hinv as (Hmx & Hpos & Hch & _).
  destruct f as [sid flags pad data|sid flags dep block|sid dep|sid flags promised block|s
                |ack payload|last code debug|sid inc|sid code]; cbn [encode];
    (* PRIORITY is refused; the kinds after PUSH_PROMISE are encoded straight into the buffer *)
    [| |discriminate Hb| |destruct (append_direct_spec max st _ _ st' Hinv Hb); eauto..].
  - (* DATA *)
    destruct (w_max st <? lenN data); [discriminate Hb|].
    destruct (w_chain st <=? lenN data) eqn:Echain;
      [|destruct (append_direct_spec max st _ _ st' Hinv Hb); eauto].
    apply N.leb_le in Echain. unfold data_encode.
    set (head := head_encode kind_data flags sid (lenN data)) in *.
    destruct (lenN (w_buf st ++ head) <? w_chain st) eqn:Ecopy.
    + (* chained, a bit of the payload copied behind the head *)
      apply N.ltb_lt in Ecopy. rewrite <- app_assoc in Hb. apply BOk_inj in Hb. subst st'.
      set (extra := w_chain st - (lenN (w_buf st ++ head) - w_pos st)).
      assert (Hextra : extra < lenN data).
      { unfold extra. rewrite lenN_app in Ecopy |- *. change (lenN head) with 9 in *. lia. }
      match goal with |- winv _ (set_w _ _ _ ?cap ?nx) /\ _ =>
        destruct (append_spec max st (head ++ takeN extra data) cap nx Hinv) as [Hi Hr] end.
      { intros Hnil. apply (f_equal lenN) in Hnil. rewrite lenN_dropN, lenN_nil in Hnil. lia. }
      split; [exact Hi|]. eexists. split; [reflexivity|].
      unfold pending. rewrite Hr. cbn [set_w w_next].
      rewrite <- !app_assoc, takeN_dropN. reflexivity.
    + (* chained, head only *)
      apply BOk_inj in Hb. subst st'.
      match goal with |- winv _ (set_w _ _ _ ?cap ?nx) /\ _ =>
        destruct (append_spec max st head cap nx Hinv) as [Hi Hr] end.
      { intros ->. rewrite lenN_nil in Echain. lia. }
      split; [exact Hi|]. eexists. split; [reflexivity|].
      unfold pending. rewrite Hr. cbn [set_w w_next]. rewrite <- app_assoc. reflexivity.
  - (* HEADERS *)
    rewrite Hmx in Hb. exact (append_limited_spec max st _ sid st' Hmax1 Hmax2 Hinv Hb).
  - (* PUSH_PROMISE *)
    rewrite Hmx in Hb. exact (append_limited_spec max st _ sid st' Hmax1 Hmax2 Hinv Hb).
Qed.

Lemma buffered_frames_nil ops : buffered_frames ops [] = [].
Proof. destruct ops as [|[|f|] ops]; reflexivity. Qed.

Lemma run_spec max :
  1 <= max -> max <= MAX_MAX_FRAME_SIZE ->
  forall ops st script p st' ws os,
    winv max st -> pending st = EOk p ->
    run ops st script = (st', ws, os) ->
    winv max st' /\
    exists e p', encode_all max (buffered_frames ops os) = EOk e /\
                 pending st' = EOk p' /\ concat ws ++ p' = p ++ e.
Proof.
  intros Hmax1 Hmax2.
  induction ops as [|o ops IH]; intros st script p st' ws os Hinv Hp Hr.
  { injection Hr as <- <- <-. split; [exact Hinv|]. exists [], p. rewrite app_nil_r. auto. }
  destruct o as [|f|]; cbn [run] in Hr.
  2:{ (* buffer *)
    destruct (buffer st f) as [st1| |] eqn:Hb.
    - destruct (buffer_spec max st p f st1 Hmax1 Hmax2 Hinv Hp Hb) as (Hi1 & ef & Hef & Hp1).
      destruct (run ops st1 script) as [[st2 ws2] os2] eqn:Hr2. injection Hr as <- <- <-.
      destruct (IH st1 script (p ++ ef) st2 ws2 os2 Hi1 Hp1 Hr2) as (Hi2 & e & p2 & He & Hp2 & Hcat2).
      split; [exact Hi2|]. exists (ef ++ e), p2. cbn [buffered_frames encode_all].
      rewrite Hef, He, app_assoc. auto.
    - destruct (run ops st script) as [[st2 ws2] os2] eqn:Hr2. injection Hr as <- <- <-.
      exact (IH st script p st2 ws2 os2 Hinv Hp Hr2).
    - injection Hr as <- <- <-. split; [exact Hinv|]. exists [], p.
      cbn [buffered_frames]. rewrite buffered_frames_nil, app_nil_r. auto. }
  1: destruct (poll_ready st script) as [[[st1 ws1] r] script'] eqn:Hio;
     destruct (poll_ready_spec max Hmax1 Hmax2 script st p st1 ws1 r script' Hinv Hp Hio)
       as (Hi1 & p1 & Hp1 & Hcat1 & _).
  2: destruct (flush st script) as [[[st1 ws1] r] script'] eqn:Hio;
     destruct (flush_spec max Hmax1 Hmax2 script st p st1 ws1 r script' Hinv Hp Hio)
       as (Hi1 & p1 & Hp1 & Hcat1 & _).
  all: destruct (fres_fatal r).
  (* a fatal outcome (goals 1 and 3) ends the run; otherwise it goes on from st1 *)
  1,3: injection Hr as <- <- <-; split; [exact Hi1|]; exists [], p1;
       cbn [buffered_frames]; rewrite buffered_frames_nil, app_nil_r; auto.
  all: destruct (run ops st1 script') as [[st2 ws2] os2] eqn:Hr2; injection Hr as <- <- <-;
       destruct (IH st1 script' p1 st2 ws2 os2 Hi1 Hp1 Hr2) as (Hi2 & e & p2 & He & Hp2 & Hcat2);
       split; [exact Hi2|]; exists e, p2; split; [exact He|]; split; [exact Hp2|];
       rewrite concat_app, <- app_assoc, Hcat2, app_assoc, Hcat1; reflexivity.
Qed.

(* partial writes never duplicate, drop or reorder octets: what the transport accepted, followed by
   what the encoder still owes, is exactly the encodings of the buffered frames, in order *)
Theorem C12_write_no_dup_drop :
  forall vectored max ops script st' ws os,
    1 <= max -> max <= MAX_MAX_FRAME_SIZE ->
    run ops (winit vectored max) script = (st', ws, os) ->
    exists total rest,
      encode_all max (buffered_frames ops os) = EOk total /\
      pending st' = EOk rest /\
      concat ws ++ rest = total.
Proof.
  intros vectored max ops script st' ws os H1 H2 Hr.
  exact (proj2 (run_spec max H1 H2 ops (winit vectored max) script [] st' ws os
                  (winv_winit vectored max) (pending_winit vectored max) Hr)).
Qed.

Lemma run_winv :
  forall vectored max ops script st' ws os,
    1 <= max -> max <= MAX_MAX_FRAME_SIZE ->
    run ops (winit vectored max) script = (st', ws, os) ->
    winv max st' /\ exists p, pending st' = EOk p.
Proof.
  intros vectored max ops script st' ws os H1 H2 Hr.
  destruct (run_spec max H1 H2 ops (winit vectored max) script [] st' ws os
              (winv_winit vectored max) (pending_winit vectored max) Hr)
    as (Hi & e & p' & _ & Hp' & _).
  eauto.
Qed.

Lemma flush_accept_nothing st st1 k script :
  settle st = SBusy st1 -> N.min k (lenN (offered st1)) = 0 ->
  flush st (TAccept k :: script) = (st1, [], FWriteZero, script).
Proof.
  intros Hs Hk. cbn [flush]. rewrite Hs, Hk, N.eqb_refl. reflexivity.
Qed.

Lemma fres_fatal_write_zero : fres_fatal FWriteZero = true.
Proof. reflexivity. Qed.

Lemma run_stops_on_write_zero : forall ops st script st1 ws rest,
  flush st script = (st1, ws, FWriteZero, rest) ->
  run (OpFlush :: ops) st script = (st1, ws, [ObFlush FWriteZero]).
Proof. intros ops st script st1 ws rest Hf. cbn [run]. rewrite Hf. reflexivity. Qed.

Lemma run_stops_on_write_zero_poll : forall ops st script st1 ws rest,
  poll_ready st script = (st1, ws, FWriteZero, rest) ->
  run (OpPollReady :: ops) st script = (st1, ws, [ObPoll FWriteZero]).
Proof. intros ops st script st1 ws rest Hf. cbn [run]. rewrite Hf. reflexivity. Qed.

Definition enc_is (r : enc_result) (bs : list N) : bool :=
  match r with EOk b => list_N_eqb b bs | _ => false end.

Definition enc_len_is (r : enc_result) (n : N) : bool :=
  match r with EOk b => lenN b =? n | _ => false end.

(* run from [winit]; compare the observations (obs_code), the sizes of the accepted writes, check
   that what was written followed by what is still owed is the encoding of the buffered frames,
   and that [owed] octets are still owed *)
Definition run_check (vectored : bool) (max : N) (ops : list op) (script : list titem)
           (codes wlens : list N) (owed : N) : bool :=
  let '(st', ws, os) := run ops (winit vectored max) script in
  list_N_eqb (map obs_code os) codes && list_N_eqb (map lenN ws) wlens &&
  match pending st' with
  | EOk rest => enc_is (encode_all max (buffered_frames ops os)) (concat ws ++ rest) && (lenN rest =? owed)
  | _ => false
  end.

(* a chained DATA frame (300 octets >= chain threshold 256, vectored): head + 247 copied octets in
   the buffer, 53 octets chained; transport takes 5, is Pending, then takes the rest *)
Example C12_write_ex_chained :
  run_check true 16384
    [OpBuffer (FData 1 1 None (repeat 7 300)); OpFlush; OpFlush; OpPollReady;
     OpBuffer (FHeaders 3 4 None (repeat 1 20)); OpFlush]
    [TAccept 5; TPending; TAccept 1000; TAccept 1000]
    [20; 11; 10; 0; 20; 10] [5; 304; 29] 0 = true.
Proof. vm_compute. reflexivity. Qed.

(* the same without vectored I/O (threshold 1024): the buffer and the chained payload go out in
   separate writes *)
Example C12_write_ex_chained_novec :
  run_check false 16384
    [OpBuffer (FData 1 0 None (repeat 7 1100)); OpFlush; OpFlush]
    [TAccept 5; TPending; TAccept 5000; TAccept 5000]
    [20; 11; 10] [5; 1019; 85] 0 = true.
Proof. vm_compute. reflexivity. Qed.

(* HEADERS split into CONTINUATIONs (max = 64, block of 200 octets: 64 + 64 + 64 + 8), then a small
   DATA frame; one write per CONTINUATION *)
Example C12_write_ex_continuations :
  run_check true 64
    [OpBuffer (FHeaders 1 4 None (repeat 1 200)); OpFlush; OpFlush; OpPollReady;
     OpBuffer (FData 1 1 None [1; 2; 3]); OpFlush]
    [TAccept 5; TPending; TAccept 1000; TAccept 1000; TAccept 1000; TAccept 1000; TAccept 1000]
    [20; 11; 10; 0; 20; 10] [5; 68; 73; 73; 17; 12] 0 = true.
Proof. vm_compute. reflexivity. Qed.

(* a run that ends in the middle of a header block: 73 octets written, 163 still owed *)
Example C12_write_ex_partial :
  run_check true 64
    [OpBuffer (FHeaders 1 4 None (repeat 1 200)); OpFlush]
    [TAccept 5; TAccept 1000; TPending]
    [20; 11] [5; 68] 163 = true.
Proof. vm_compute. reflexivity. Qed.

(* the hypotheses of C12_write_no_dup_drop / _prefix hold on a concrete run that stops in the
   middle of the first frame *)
Example C12_write_ex_hypotheses :
  1 <= 64 /\ 64 <= MAX_MAX_FRAME_SIZE /\
  exists st',
    run [OpBuffer (FHeaders 1 4 None (repeat 1 200)); OpFlush] (winit true 64) [TAccept 5; TPending]
      = (st', [[0; 0; 64; 1; 0]], [ObBuffered; ObFlush FPending]).
Proof.
  split; [unfold MAX_MAX_FRAME_SIZE; lia|]. split; [unfold MAX_MAX_FRAME_SIZE; lia|].
  exists (fst (fst (run [OpBuffer (FHeaders 1 4 None (repeat 1 200)); OpFlush] (winit true 64)
                        [TAccept 5; TPending]))).
  vm_compute. reflexivity.
Qed.

(* a state with a PING in the buffer *)
Definition ex_ping : frame := FPing false [1; 2; 3; 4; 5; 6; 7; 8].
Definition ex_ping_state : wstate :=
  match buffer (winit true 16384) ex_ping with BOk s => s | _ => winit true 16384 end.

Example ex_ping_state_buffered : buffer (winit true 16384) ex_ping = BOk ex_ping_state.
Proof. vm_compute. reflexivity. Qed.

Example ex_ping_state_inv :
  winv 16384 ex_ping_state /\ pending ex_ping_state = EOk (ping_encode false [1; 2; 3; 4; 5; 6; 7; 8]).
Proof.
  assert (H1 : 1 <= 16384) by lia.
  assert (H2 : 16384 <= MAX_MAX_FRAME_SIZE) by (unfold MAX_MAX_FRAME_SIZE; lia).
  destruct (buffer_spec 16384 _ [] ex_ping ex_ping_state H1 H2 (winv_winit true 16384)
              (pending_winit true 16384) ex_ping_state_buffered) as (Hi & e & He & Hp).
  cbn [encode ex_ping] in He. injection He as He. subst e.
  split; [exact Hi|exact Hp].
Qed.

(* flush_ready_drained: two writes, then Ready with nothing owed *)
Example flush_ready_drained_ex :
  flush ex_ping_state [TAccept 4; TAccept 100]
    = (set_w ex_ping_state [] 0 (w_cap ex_ping_state) None,
       [[0; 0; 8; 6]; [0; 0; 0; 0; 0; 1; 2; 3; 4; 5; 6; 7; 8]], FReady, []) /\
  pending (set_w ex_ping_state [] 0 (w_cap ex_ping_state) None) = EOk [].
Proof. split; vm_compute; reflexivity. Qed.

(* WriteZero: the transport returns 0 (or accepts 0 octets) while the PING is owed *)
Example C12_write_zero_ex :
  settle ex_ping_state = SBusy ex_ping_state /\
  flush ex_ping_state [TZero; TAccept 100] = (ex_ping_state, [], FWriteZero, [TAccept 100]) /\
  flush ex_ping_state [TAccept 0; TAccept 100] = (ex_ping_state, [], FWriteZero, [TAccept 100]) /\
  run [OpBuffer ex_ping; OpFlush; OpFlush] (winit true 16384) [TZero; TAccept 100]
    = (ex_ping_state, [], [ObBuffered; ObFlush FWriteZero]).
Proof. repeat split; vm_compute; reflexivity. Qed.

(* C12_send_limit: well-formed frames whose encodings are cut back into the expected payloads *)
Definition enc_payload_lengths (r : enc_result) : option (list N) :=
  match r with EOk bs => payload_lengths (S (length bs)) bs | _ => None end.

Example C12_send_limit_ex_headers :
  frame_wf 64 (FHeaders 1 4 None (repeat 1 200)) = true /\
  enc_payload_lengths (encode 64 (FHeaders 1 4 None (repeat 1 200))) = Some [64; 64; 64; 8].
Proof. split; vm_compute; reflexivity. Qed.

Example C12_send_limit_ex_push_promise :
  frame_wf 64 (FPushPromise 1 4 2 (repeat 1 100)) = true /\
  enc_payload_lengths (encode 64 (FPushPromise 1 4 2 (repeat 1 100))) = Some [64; 40].
Proof. split; vm_compute; reflexivity. Qed.

Example C12_send_limit_ex_data :
  frame_wf 16384 (FData 1 1 None (repeat 7 300)) = true /\
  enc_payload_lengths (encode 16384 (FData 1 1 None (repeat 7 300))) = Some [300].
Proof. split; vm_compute; reflexivity. Qed.

Example C12_send_limit_ex_settings :
  let s := {| s_flags := 0; s_header_table_size := Some 4096; s_enable_push := Some 0;
              s_max_concurrent_streams := Some 100; s_initial_window_size := Some 65535;
              s_max_frame_size := Some 16384; s_max_header_list_size := Some 16384;
              s_enable_connect_protocol := Some 1 |} in
  frame_wf 42 (FSettings s) = true /\ enc_payload_lengths (encode 42 (FSettings s)) = Some [42].
Proof. split; vm_compute; reflexivity. Qed.

(* the bound 42 <= max of C12_send_limit is needed for exactly this frame: with max = 41 it is
   well-formed (frame_wf does not look at the size of SETTINGS) and its payload is 42 octets *)
Example C12_send_limit_bound_tight :
  let s := {| s_flags := 0; s_header_table_size := Some 4096; s_enable_push := Some 0;
              s_max_concurrent_streams := Some 100; s_initial_window_size := Some 65535;
              s_max_frame_size := Some 16384; s_max_header_list_size := Some 16384;
              s_enable_connect_protocol := Some 1 |} in
  frame_wf 41 (FSettings s) = true /\
  match encode 41 (FSettings s) with EOk bs => all_payloads_le 41 bs | _ => true end = false.
Proof. split; vm_compute; reflexivity. Qed.

(* DATA against the limit *)
Example C12_send_limit_data_enforced_ex :
  exists st', buffer (winit true 16384) (FData 1 1 None (repeat 7 300)) = BOk st'.
Proof.
  exists (match buffer (winit true 16384) (FData 1 1 None (repeat 7 300)) with
          | BOk s => s | _ => winit true 16384 end).
  vm_compute. reflexivity.
Qed.

Example buffer_data_too_big_ex :
  has_capacity (winit true 16384) = true /\
  w_max (winit true 16384) < lenN (repeat 7 (N.to_nat 16385)) /\
  buffer (winit true 16384) (FData 1 1 None (repeat 7 (N.to_nat 16385))) = BPayloadTooBig.
Proof.
  split; [vm_compute; reflexivity|]. split; [|vm_compute; reflexivity].
  apply N.ltb_lt. vm_compute. reflexivity.
Qed.
