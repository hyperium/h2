(* Proofs for property C06 (no lost wakeup), the wake discipline of Model/Wake.v: in every run in which no slot is
   shared by two tasks, a task that was told to wait and whose wait is over has a wake pending (WInv; as a boolean,
   no_lost_wake), for every implementation table that covers the specification table; the current table does
   (table_complete), the tables before the repairs do not (the fix_needed lemmas). *)
From H2V Require Import Base.Tac Model.Wake.
Local Open Scope N_scope.

Lemma slot_eqb_eq a b : slot_eqb a b = true <-> a = b.
Proof. destruct a, b; cbn [slot_eqb]; rewrite ?N.eqb_eq; split; congruence. Qed.

Lemma slot_eqb_spec a b : reflect (a = b) (slot_eqb a b).
Proof. apply iff_reflect. symmetry. apply slot_eqb_eq. Qed.

Lemma mem_slot_In sl l : mem_slot sl l = true <-> In sl l.
Proof.
  induction l as [|x l IH]; cbn [mem_slot In]; [split; [discriminate|intros []]|].
  rewrite orb_true_iff, IH, slot_eqb_eq. reflexivity.
Qed.

Lemma memN_In t l : memN t l = true <-> In t l.
Proof.
  induction l as [|x l IH]; cbn [memN In]; [split; [discriminate|intros []]|].
  rewrite orb_true_iff, IH, N.eqb_eq. reflexivity.
Qed.

Lemma rget_rdel_same sl r : rget sl (rdel sl r) = None.
Proof.
  induction r as [|[s t] r IH]; cbn [rdel rget]; [reflexivity|].
  destruct (slot_eqb s sl) eqn:E; [exact IH|]. cbn [rget]. rewrite E. exact IH.
Qed.

Lemma rget_rdel_other sl sl' r : sl <> sl' -> rget sl' (rdel sl r) = rget sl' r.
Proof.
  intros Hne. induction r as [|[s t] r IH]; cbn [rdel rget]; [reflexivity|].
  destruct (slot_eqb_spec s sl) as [->|_].
  - destruct (slot_eqb_spec sl sl'); [contradiction|exact IH].
  - cbn [rget]. rewrite IH. reflexivity.
Qed.

Lemma rget_rset sl sl' t r : rget sl' (rset sl t r) = if slot_eqb sl sl' then Some t else rget sl' r.
Proof.
  unfold rset. cbn [rget]. destruct (slot_eqb_spec sl sl'); [reflexivity|]. apply rget_rdel_other. assumption.
Qed.

Lemma notify_spec sls : forall reg woken r2 w2 o2,
  notify sls reg woken = (r2, w2, o2) ->
  (forall t, In t woken -> In t w2) /\
  (forall sl t, rget sl reg = Some t -> rget sl r2 = Some t \/ In t w2) /\
  (forall sl t, In sl sls -> rget sl reg = Some t -> In t w2 /\ In t (wakes_of o2)).
Proof.
  induction sls as [|sl sls IH]; intros reg woken r2 w2 o2; cbn [notify].
  - intros [= <- <- <-]. repeat split; auto; contradiction.
  - destruct (rget sl reg) as [t0|] eqn:G.
    + destruct (notify sls (rdel sl reg) (t0 :: woken)) as [[r3 w3] o3] eqn:EN.
      intros [= <- <- <-]. destruct (IH _ _ _ _ _ EN) as (A & B & C).
      assert (T0 : In t0 w3) by (apply A; left; reflexivity). cbn [wakes_of].
      (* the slot just taken, or another one, for which the tail of the list answers *)
      assert (D : forall sl' t, rget sl' reg = Some t -> t = t0 /\ sl' = sl \/ rget sl' (rdel sl reg) = Some t).
      { intros sl' t Hg. destruct (slot_eqb_spec sl sl') as [E|Hne]; [left; split; congruence|right].
        rewrite rget_rdel_other; assumption. }
      split; [|split].
      * intros t Ht. apply A. right. exact Ht.
      * intros sl' t [[-> _]|Hg]%D; auto.
      * intros sl' t HIn [[-> ->]|Hg]%D; [split; [exact T0|left; reflexivity]|].
        destruct HIn as [E|HIn]; [subst sl'; rewrite rget_rdel_same in Hg; discriminate|].
        destruct (C _ _ HIn Hg). split; [|right]; assumption.
    + destruct (notify sls reg woken) as [[r3 w3] o3] eqn:EN.
      intros [= <- <- <-]. destruct (IH _ _ _ _ _ EN) as (A & B & C). cbn [wakes_of].
      split; [exact A|split; [exact B|]].
      intros sl' t [E|HIn] Hg; [congruence|exact (C _ _ HIn Hg)].
Qed.

Definition WInv (st : wstate) : Prop :=
  (forall t sl, In (t, sl) (w_parked st) -> rget sl (w_reg st) = Some t \/ In t (w_woken st)) /\
  (forall t, In t (w_due st) -> In t (w_woken st)).

Definition covers (nf : site -> list slot) : Prop := forall s sl, In sl (interested s) -> In sl (nf s).

Lemma winit_inv : WInv winit.
Proof. split; intros ? ; cbn; intros; contradiction. Qed.

Lemma filter_neq_In t x l : In x (filter (fun y => negb (y =? t)) l) <-> In x l /\ x <> t.
Proof.
  rewrite filter_In. rewrite negb_true_iff, N.eqb_neq. reflexivity.
Qed.

Lemma wstep_inv nf st l : covers nf -> WInv st -> displaces st l = false -> WInv (fst (wstep nf st l)).
Proof.
  intros Hcov (IP & ID) Hnd. destruct l as [t|sl t|s|t]; cbn [wstep fst].
  - (* LPoll: the polled task is neither parked nor due any more *)
    split; cbn [w_parked w_reg w_woken w_due].
    + intros t' sl [Hin Hne]%filter_In. cbn [fst] in Hne. apply negb_true_iff, N.eqb_neq in Hne.
      destruct (IP _ _ Hin) as [Hr|Hw]; [left; exact Hr|right; apply filter_neq_In; split; assumption].
    + intros x [Hin Hne]%filter_neq_In. apply filter_neq_In. split; [apply ID; exact Hin|exact Hne].
  - (* LRegister: the slot held no other task's waker *)
    split; cbn [w_parked w_reg w_woken w_due]; [|exact ID].
    intros t' sl' [[= <- <-]|Hin]; rewrite rget_rset.
    + destruct (slot_eqb_spec sl sl); [auto|contradiction].
    + destruct (IP _ _ Hin) as [Hr|Hw]; [|right; exact Hw]. left.
      destruct (slot_eqb_spec sl sl') as [<-|_]; [|exact Hr].
      cbn [displaces] in Hnd. rewrite Hr in Hnd. apply negb_false_iff, N.eqb_eq in Hnd. congruence.
  - (* LSite *)
    destruct (notify (nf s) (w_reg st) (w_woken st)) as [[r2 w2] o2] eqn:EN.
    destruct (notify_spec _ _ _ _ _ _ EN) as (A & B & C).
    cbn [fst]. split; cbn [w_parked w_reg w_woken w_due].
    + intros t sl Hin. destruct (IP _ _ Hin) as [Hr|Hw]; [exact (B _ _ Hr)|right; exact (A _ Hw)].
    + intros x [Hin|Hin]%in_app_or; [|exact (A _ (ID _ Hin))].
      apply in_map_iff in Hin as ([t sl] & <- & [Hp Hm%mem_slot_In]%filter_In). cbn [fst snd] in *.
      destruct (IP _ _ Hp) as [Hr|Hw]; [|exact (A _ Hw)].
      exact (proj1 (C _ _ (Hcov _ _ Hm) Hr)).
  - (* LSelfWake *)
    split; cbn [w_parked w_reg w_woken w_due].
    + intros t' sl Hin. destruct (IP _ _ Hin) as [Hr|Hw]; [left; exact Hr|right; right; exact Hw].
    + intros x Hin. right. exact (ID _ Hin).
Qed.

Theorem wrun_nodisp_inv nf ls : covers nf -> forall st st', WInv st -> wrun_nodisp nf st ls = Some st' -> WInv st'.
Proof.
  intros Hcov. induction ls as [|l ls IH]; intros st st' HI; cbn [wrun_nodisp].
  - intros [= <-]. exact HI.
  - destruct (displaces st l) eqn:E; [discriminate|].
    intros H. eapply IH; [|exact H]. apply wstep_inv; assumption.
Qed.

Theorem table_complete : covers notify_of.
Proof.
  (* at every site (for a receiver event: every kind, ended or not) the slots to be told are among those taken *)
  intros s sl. destruct s as [k|k|k|k|k|k|k [] []|k|w|w|[]|[]|]; cbn [interested notify_of In]; tauto.
Qed.

Lemma no_lost_wake_bool st : (forall t, In t (w_due st) -> In t (w_woken st)) -> no_lost_wake st = true.
Proof.
  intros H. unfold no_lost_wake. apply forallb_forall. intros t Ht. apply memN_In. exact (H _ Ht).
Qed.

(* the wake is emitted by the very label at which the wait ends: a registered task whose slot is in the specification
   table of the site is among the wakers fired by that label *)
Theorem wake_in_same_label st s sl t :
  In sl (interested s) -> rget sl (w_reg st) = Some t -> In t (wakes_of (snd (wstep notify_of st (LSite s)))).
Proof.
  intros Hi Hr. cbn [wstep].
  destruct (notify (notify_of s) (w_reg st) (w_woken st)) as [[r2 w2] o2] eqn:EN. cbn [snd].
  destruct (notify_spec _ _ _ _ _ _ EN) as (_ & _ & C).
  exact (proj2 (C _ _ (table_complete _ _ Hi) Hr)).
Qed.

(* a67af12: before it, the END_STREAM of the parent stream did not wake the push waiter *)
Definition push_run : list wlabel := [LPoll 105; LRegister (SlPush 1) 105; LSite (StRecvEvent 1 RHeaders true)].

Theorem push_fix_needed :
  exists st, wrun_nodisp notify_before_push_fix winit push_run = Some st /\
    In 105 (w_due st) /\ ~ In 105 (w_woken st) /\ no_lost_wake st = false.
Proof. eexists. split; [vm_compute; reflexivity|]. vm_compute. intuition discriminate. Qed.

(* b730a71: before it, lowering a reservation left work for the connection task without waking it *)
Definition reserve_run : list wlabel := [LPoll 1; LRegister SlConn 1; LSite (StWork WReservationLowered)].

Theorem reserve_fix_needed :
  exists st, wrun_nodisp notify_before_reserve_fix winit reserve_run = Some st /\
    In 1 (w_due st) /\ ~ In 1 (w_woken st) /\ rget SlConn (w_reg st) = Some 1.
Proof. eexists. split; [vm_compute; reflexivity|]. vm_compute. intuition discriminate. Qed.

(* f1e4dd0: before it, SendRequest::poll_ready parked in the queued stream's send_task slot, which the stream's own
   SendStream (another task) uses as well: whoever registers second throws the other waker out, and the opening of the
   stream wakes only one of them *)
Definition open_run_before : list wlabel :=
  [LPoll 2; LRegister (SlSend 3) 2; LPoll 111; LRegister (SlSend 3) 111; LSite (StOpened 3)].
Definition open_run_after : list wlabel :=
  [LPoll 2; LRegister (SlOpen 3) 2; LPoll 111; LRegister (SlSend 3) 111; LSite (StOpened 3)].

Theorem open_fix_needed :
  wrun_nodisp notify_of winit open_run_before = None /\
  let st := wrun notify_of winit open_run_before in
  In (2, SlSend 3) (w_parked st) /\ ~ In 2 (w_woken st) /\ rget (SlSend 3) (w_reg st) = None /\ w_woken st = [111].
Proof.
  split; [vm_compute; reflexivity|]. vm_compute. intuition discriminate.
Qed.

(* non-vacuity: a run with every kind of waiter in which waits end and wakes are delivered *)
Definition wdemo : list wlabel :=
  [LPoll 1; LRegister SlConn 1;
   LPoll 100; LRegister (SlRecv 1) 100; LPoll 105; LRegister (SlPush 1) 105; LPoll 103; LRegister (SlSend 1) 103;
   LPoll 2; LRegister (SlOpen 2) 2;
   LSite (StWork WFrameQueued); LPoll 1; LSite (StOpened 2); LRegister SlConn 1;
   LSite (StCapacity 1); LSite (StRecvEvent 1 RData false); LPoll 100; LRegister (SlRecv 1) 100;
   LSite (StRecvEvent 1 RData true); LSite (StWork WStreamWindowOwed)].

Example wdemo_runs :
  exists st, wrun_nodisp notify_of winit wdemo = Some st /\ w_due st <> [] /\ no_lost_wake st = true /\
    w_woken st = [1; 105; 100; 103; 2].
Proof. eexists. split; [vm_compute; reflexivity|]. vm_compute. intuition discriminate. Qed.
