(* The invariant of the receive-flow model (RInvD) and the walk over the labels (rstep_spec): every
   label preserves it, does not panic, and has the effect on the windows that Proofs/RecvFlowEff.v
   names for it. *)
From H2V Require Import Base.Tac Model.RecvFlow Proofs.RecvFlowLists Proofs.RecvFlowEff.
Local Open Scope Z_scope.

(* Q: a record whose application holds the handle, has released everything and is owed a
   WINDOW_UPDATE is queued for one *)
Definition rQ (s : rstream) : Prop :=
  r_isrecv s = true -> r_done s = false -> r_unl s = false -> r_infl s = 0 ->
  unclaimed (r_win s) (r_avail s) <> None -> r_pend s = true.

(* the part of the per-record invariant that does not mention SETTINGS_INITIAL_WINDOW_SIZE (rlink
   is the other part): window <= available, available + in flight <= configured size, with equality
   while the application holds the handle of a linked, receive-streaming record; configured size and
   window within i32; Q *)
Definition rokb (s : rstream) : Prop :=
  0 <= r_infl s /\ r_win s <= r_avail s /\ r_avail s + r_infl s <= r_base s /\
  (r_isrecv s = true -> r_done s = false -> r_unl s = false -> r_avail s + r_infl s = r_base s) /\
  r_base s <= RMAXW /\ RMINW <= r_win s /\ rQ s.

(* a record still linked in the store follows SETTINGS_INITIAL_WINDOW_SIZE *)
Definition rlink (init : Z) (s : rstream) : Prop :=
  r_unl s = false -> r_base s <= init /\ init - RMAXW <= r_win s.

Definition rok (init : Z) (s : rstream) : Prop := rokb s /\ rlink init s.

(* connection: available + in flight = configured target; every in-flight byte of the connection
   belongs to exactly one record, except d; every record satisfies P *)
Definition RInvG (P : rstream -> Prop) (d : Z) (st : rstate) : Prop :=
  0 <= d /\ 0 <= k_infl st /\ k_infl st = sum_infl (k_strs st) + d /\
  k_avail st + k_infl st = k_target st /\ 0 <= k_target st /\ k_target st <= RMAXW /\
  0 <= k_init st /\ k_init st <= RMAXW /\ 0 <= k_win st /\ RMINW <= k_avail st /\
  NoDup (map r_id (k_strs st)) /\ Forall P (k_strs st).

(* [d] = bytes charged to the connection by a step that then reported a connection error: they
   are attributed to no record and never returned *)
Definition RInvD (d : Z) (st : rstate) : Prop := RInvG (rok (k_init st)) d st.

Definition RInv (st : rstate) : Prop := RInvD 0 st.

(* what the environment guarantees about label arguments: unsigned values within 31 bits (frame
   lengths, the bound release_capacity and the SETTINGS parser enforce) *)
Definition rlabel_ok (l : rlabel) : Prop :=
  match l with
  | RNew _ init => 0 <= init <= RMAXW
  | RDataUnknown sz => 0 <= sz <= RMAXW
  | RData _ _ sz payload _ => 0 <= payload /\ payload <= sz /\ sz <= RMAXW
  | RRelease _ cap => 0 <= cap <= RMAXW
  | RClear _ _ to_release => 0 <= to_release <= RMAXW
  | RSetTarget target => 0 <= target <= RMAXW
  | RApplySettings new_init _ => 0 <= new_init <= RMAXW
  | _ => True
  end.

Ltac simp_r :=
  unfold kput, kset_strs, kset_flow in *;
  cbn [r_id r_win r_avail r_infl r_pend r_isrecv r_base r_done r_unl
       k_win k_avail k_infl k_init k_target k_strs] in *.

Ltac rlia := unfold RInvD, RInvG, in_i32r, ras_size, RMINW, RMAXW, RDEFAULT in *; lia.

Lemma rokb_intro s :
  0 <= r_infl s -> r_win s <= r_avail s -> r_avail s + r_infl s <= r_base s ->
  (r_isrecv s = true -> r_done s = false -> r_unl s = false -> r_avail s + r_infl s = r_base s) ->
  r_base s <= RMAXW -> RMINW <= r_win s -> rQ s -> rokb s.
Proof. unfold rokb. auto 10. Qed.

Lemma rokb_inactive s s' :
  rokb s -> r_win s' = r_win s -> r_avail s' = r_avail s -> r_base s' = r_base s ->
  0 <= r_infl s' <= r_infl s ->
  r_isrecv s' = false \/ r_done s' = true \/ r_unl s' = true -> rokb s'.
Proof.
  intros (K1 & K2 & K3 & _ & K5 & K6 & _) Hw Ha Hb Hi Hina.
  apply rokb_intro; try lia.
  - intros A1 A2 A3. destruct Hina as [H|[H|H]]; congruence.
  - intros A1 A2 A3. destruct Hina as [H|[H|H]]; congruence.
Qed.

Lemma rok_infl init s : rok init s -> 0 <= r_infl s.
Proof. intros (H & _). apply H. Qed.

Lemma in_i32r_true z : RMINW <= z <= RMAXW -> in_i32r z = true.
Proof. rlia. Qed.

Lemma RInvG_upd (P : rstream -> Prop) d st s s' w a i d' :
  (forall x, P x -> 0 <= r_infl x) ->
  RInvG P d st -> rfind (r_id s') (k_strs st) = Some s -> P s' ->
  0 <= d' -> 0 <= w -> RMINW <= a -> a + i = k_target st ->
  i = k_infl st - d - r_infl s + r_infl s' + d' ->
  RInvG P d' (mkK w a i (k_init st) (k_target st) (rupd s' (k_strs st))).
Proof.
  intros HP (C1 & C2 & C3 & C4 & C5 & C6 & C7 & C8 & C9 & C10 & C11 & C12) F Ps' Hd' Hw Ha Hai Hi.
  pose proof (sum_rupd s s' _ F) as Hsum.
  pose proof (Forall_rupd P s' _ Ps' C12) as HF.
  pose proof (proj1 (sum_infl_ge _ (Forall_impl _ HP HF))) as Hnn.
  unfold RInvG. simp_r. rewrite rupd_ids. repeat apply conj; auto; lia.
Qed.

Lemma RInvD_upd d st s s' w a i d' :
  RInvD d st -> rfind (r_id s') (k_strs st) = Some s -> rok (k_init st) s' ->
  0 <= d' -> 0 <= w -> RMINW <= a -> a + i = k_target st ->
  i = k_infl st - d - r_infl s + r_infl s' + d' ->
  RInvD d' (mkK w a i (k_init st) (k_target st) (rupd s' (k_strs st))).
Proof. apply RInvG_upd, rok_infl. Qed.

Lemma RInvD_In d st s : RInvD d st -> In s (k_strs st) -> rok (k_init st) s.
Proof. intros HI. apply Forall_forall, HI. Qed.

Lemma RInvD_sum d st :
  RInvD d st -> 0 <= sum_infl (k_strs st) /\ forall s, In s (k_strs st) -> r_infl s <= sum_infl (k_strs st).
Proof.
  intros HI. apply sum_infl_ge, Forall_forall. intros s HIn. exact (rok_infl _ _ (RInvD_In _ _ _ HI HIn)).
Qed.

Lemma RInvD_flow d st w a i d' :
  RInvD d st -> 0 <= d' -> 0 <= w -> RMINW <= a -> a + i = k_target st ->
  i = k_infl st - d + d' ->
  RInvD d' (kset_flow st w a i).
Proof.
  intros HI Hd' Hw Ha Hai Hi. pose proof (proj1 (RInvD_sum _ _ HI)) as Hnn.
  destruct HI as (C1 & C2 & C3 & C4 & C5 & C6 & C7 & C8 & C9 & C10 & C11 & C12).
  unfold RInvD, RInvG. simp_r. repeat apply conj; auto; lia.
Qed.

Lemma RInvD_find d st key s :
  RInvD d st -> rfind key (k_strs st) = Some s ->
  key = r_id s /\ rok (k_init st) s /\ r_infl s <= k_infl st - d.
Proof.
  intros HI F. destruct (rfind_In _ _ _ F) as (Hid & HIn).
  split; [auto|]. split; [exact (RInvD_In _ _ _ HI HIn)|].
  pose proof (proj2 (RInvD_sum _ _ HI) s HIn). rlia.
Qed.

(* Outcome of (a part of) one label from a state with unattributed charge d: no panic; d never
   shrinks and grows only on a step that reports a connection error; the state reached and the
   outputs satisfy E. *)
Definition post (d : Z) (E : rstate -> list rout -> Prop) (r : routcome) : Prop :=
  match r with
  | ROk st' o =>
      ((exists d', d <= d' /\ RInvD d' st') /\ (rhas_conn_err o = false -> RInvD d st')) /\ E st' o
  | RStuck _ => True
  | RPanic _ => False
  end.

Lemma post_ok d (E : rstate -> list rout -> Prop) st' o : RInvD d st' -> E st' o -> post d E (ROk st' o).
Proof. intros HI HE. split; [|exact HE]. split; [exists d; split; [lia|exact HI]|auto]. Qed.

Lemma post_err d d' (E : rstate -> list rout -> Prop) st' o :
  d <= d' -> RInvD d' st' -> rhas_conn_err o = true -> E st' o -> post d E (ROk st' o).
Proof.
  intros Hd HI Ho HE. split; [|exact HE]. split; [exists d'; split; [exact Hd|exact HI]|].
  cbn. rewrite Ho. discriminate.
Qed.

Lemma rthen_ok st f : rthen (ROk st []) f = f st.
Proof. cbn. now destruct (f st). Qed.

Lemma release_conn_eq st cap :
  cap <= k_infl st -> RMINW <= k_avail st + cap <= RMAXW ->
  release_conn st cap = ROk (kset_flow st (k_win st) (k_avail st + cap) (k_infl st - cap)) [].
Proof.
  intros H1 H2. unfold release_conn.
  destruct (k_infl st <? cap) eqn:E; [lia|]. now rewrite in_i32r_true.
Qed.

Lemma release_conn_spec d st cap :
  RInvD (d + cap) st -> 0 <= d -> 0 <= cap ->
  release_conn st cap = ROk (kset_flow st (k_win st) (k_avail st + cap) (k_infl st - cap)) [] /\
  RInvD d (kset_flow st (k_win st) (k_avail st + cap) (k_infl st - cap)).
Proof.
  intros HI Hd Hc. pose proof (proj1 (RInvD_sum _ _ HI)) as Hnn.
  split; [apply release_conn_eq; rlia|]. apply (RInvD_flow (d + cap)); auto; rlia.
Qed.

(* recv.rs consume_connection_window refuses the frame with a connection error or charges it to
   the connection, attributed to no record yet *)
Lemma consume_post d st sz f :
  RInvD d st -> 0 <= sz ->
  (let st1 := kset_flow st (k_win st - sz) (k_avail st - sz) (k_infl st + sz) in
   RInvD (d + sz) st1 -> post d (data_eff st sz) (f st1)) ->
  post d (data_eff st sz) (rthen (consume_conn st sz) f).
Proof.
  intros HI Hsz Hf.
  assert (Herr : post d (data_eff st sz) (rthen (ROk st [RConnErr]) f)).
  { apply post_ok; [exact HI|apply data_eff_refused]. }
  unfold consume_conn.
  destruct (ras_size (k_win st) <? sz) eqn:E1; [exact Herr|].
  destruct (negb (in_i32r (k_win st - sz)) || negb (in_i32r (k_avail st - sz))) eqn:E2; [exact Herr|].
  rewrite rthen_ok. apply Hf, (RInvD_flow d); auto; rlia.
Qed.

(* DATA that is not delivered (unknown or reset stream, dropped handle): charged and handed back at once *)
Lemma consume_release_post d st sz :
  RInvD d st -> 0 <= sz ->
  post d (data_eff st sz) (rthen (consume_conn st sz) (fun st1 => release_conn st1 sz)).
Proof.
  intros HI Hsz. apply consume_post; [exact HI|exact Hsz|]. intros st1 HI1.
  destruct (release_conn_spec d st1 sz HI1 (proj1 HI) Hsz) as (-> & HI2).
  apply post_ok; [exact HI2|]. now apply data_eff_same.
Qed.

Lemma release_stream_spec d st key cap s :
  RInvD d st -> 0 <= cap -> rfind key (k_strs st) = Some s ->
  (r_infl s < cap /\ release_stream st key cap = ROk st [RRes (-3)]) \/
  (exists st', release_stream st key cap = ROk st' [] /\ RInvD d st' /\ rquiet st st' []).
Proof.
  intros HI Hcap F. destruct (RInvD_find _ _ _ _ HI F) as (-> & ((K1 & K2 & K3 & K4 & K5 & K6 & K7) & KL) & Hge).
  unfold release_stream. rewrite F.
  destruct (r_infl s <? cap) eqn:E; [left; split; [lia|reflexivity]|right].
  rewrite release_conn_eq, rthen_ok, in_i32r_true by rlia. cbn [negb].
  eexists. split; [reflexivity|].
  set (pend := match unclaimed (r_win s) (r_avail s + cap) with Some _ => true | None => r_pend s end).
  split; [|eapply rquiet_upd; [reflexivity|reflexivity|exact F|simp_r; lia]].
  apply (RInvD_upd d st s); simp_r; auto; try rlia.
  split; [|exact KL].
  apply rokb_intro; unfold rQ; simp_r; try lia.
  intros _ _ _ _ Hu. unfold pend. now destruct (unclaimed (r_win s) (r_avail s + cap)).
Qed.

(* a record gives up c in-flight bytes (dropped handle, closed stream): they return to the
   connection, or nothing happens when c = 0 *)
Lemma hand_back_post d st s s' c :
  RInvD d st -> rfind (r_id s') (k_strs st) = Some s -> rok (k_init st) s' ->
  r_infl s' = r_infl s - c -> 0 <= c -> r_win s' <= r_win s ->
  post d (rquiet st) (release_conn (kput st s') c) /\
  (c = 0 -> post d (rquiet st) (ROk (kput st s') [])).
Proof.
  intros HI F Hok Hi Hc Hw.
  assert (HI1 : RInvD (d + c) (kput st s')) by (apply (RInvD_upd d st s); auto; rlia).
  split.
  - destruct (release_conn_spec d _ c HI1 (proj1 HI) Hc) as (-> & HI2).
    apply post_ok; [exact HI2|]. now apply (rquiet_upd _ _ s s').
  - intros ->. rewrite Z.add_0_r in HI1. apply post_ok; [exact HI1|]. now apply (rquiet_upd _ _ s s').
Qed.

(* apply_local_settings: the per-stream loop.  While it runs the records already visited follow the
   new initial window size and the others the old one, so the invariant is carried without rlink. *)
Lemma settings_streams_ok d old delta touched : forall st,
  RInvG rokb d st -> delta = k_init st - old ->
  nodup_keysr touched = true ->
  (forall key s, rfind key (k_strs st) = Some s -> mem_key key touched = true -> rlink old s) ->
  match settings_streams st delta touched with
  | ROk st' o =>
      o = [] /\ RInvG rokb d st' /\ k_init st' = k_init st /\ k_win st' = k_win st /\
      (delta <= 0 -> win_le_s st st') /\
      (forall key s', rfind key (k_strs st') = Some s' ->
         if mem_key key touched then rlink (k_init st) s' else rfind key (k_strs st) = Some s')
  | RStuck _ => True
  | RPanic _ => False
  end.
Proof.
  induction touched as [|key t IH]; intros st HI Hdelta Hnd Hlink; cbn [settings_streams].
  - repeat (split; [easy|]). split; [intros _; now apply win_le_s_same|auto].
  - destruct (rfind key (k_strs st)) as [s|] eqn:F; [|exact I].
    destruct (r_unl s) eqn:EU; [exact I|].
    pose proof HI as (C1 & C2 & C3 & C4 & C5 & C6 & C7 & C8 & C9 & C10 & C11 & C12).
    pose proof (Forall_rfind _ _ _ _ C12 F) as (K1 & K2 & K3 & K4 & K5 & K6 & K7).
    destruct (rfind_In _ _ _ F) as (<- & _).
    assert (Hm : mem_key (r_id s) (r_id s :: t) = true) by (cbn [mem_key]; now rewrite N.eqb_refl).
    pose proof (Hlink _ _ F Hm EU) as (L1 & L2).
    cbn [nodup_keysr] in Hnd. apply andb_true_iff in Hnd. destruct Hnd as (Hnk & Hnd).
    apply negb_true_iff in Hnk.
    cbv zeta.
    rewrite (in_i32r_true (r_win s + delta)), (in_i32r_true (r_avail s + delta)) by rlia.
    destruct (RMAXW <? r_win s + delta) eqn:EM; [lia|].
    cbn [negb orb].
    set (pend := if delta <? 0
                 then match unclaimed (r_win s + delta) (r_avail s + delta) with Some _ => true | None => r_pend s end
                 else r_pend s).
    set (s1 := mkR (r_id s) (r_win s + delta) (r_avail s + delta) (r_infl s) pend (r_isrecv s)
                   (r_base s + delta) (r_done s) false).
    assert (Hb1 : rokb s1).
    { unfold s1. apply rokb_intro; unfold rQ; simp_r; try rlia.
      intros A1 A2 _ A4 Hu. unfold pend. destruct (delta <? 0) eqn:ED.
      - now destruct (unclaimed (r_win s + delta) (r_avail s + delta)).
      - apply (K7 A1 A2 EU A4). intros Hn. apply Hu, unclaimed_shift_up; [lia|exact Hn]. }
    assert (Hl1 : rlink (k_init st) s1) by (intros _; unfold s1; simp_r; lia).
    assert (HI1 : RInvG rokb d (kput st s1)).
    { apply (RInvG_upd rokb d st s); auto; try (unfold s1; simp_r; lia). intros x Hx. apply Hx. }
    assert (Hlink1 : forall k x, rfind k (k_strs (kput st s1)) = Some x -> mem_key k t = true -> rlink old x).
    { intros k x Fx Hk. unfold s1 in Fx. simp_r. rewrite rfind_rupd in Fx. simp_r.
      destruct (N.eqb_spec (r_id s) k) as [<-|_]; [congruence|].
      apply (Hlink k x Fx). cbn [mem_key]. rewrite Hk. apply orb_true_r. }
    specialize (IH (kput st s1) HI1 Hdelta Hnd Hlink1).
    destruct (settings_streams (kput st s1) delta t) as [st' o|n|n]; [|exact I|exact IH].
    destruct IH as (Ho & HI' & Hinit & Hwin & Hle & Hpost).
    repeat (split; [assumption|]). split.
    + intros Hd. eapply win_le_s_trans; [|exact (Hle Hd)].
      eapply win_le_s_upd; [reflexivity|exact F|unfold s1; simp_r; lia].
    + intros k x' Fx'. specialize (Hpost k x' Fx'). cbn [mem_key].
      unfold s1 in Hpost. simp_r. rewrite rfind_rupd in Hpost. simp_r.
      destruct (N.eqb_spec (r_id s) k) as [<-|_]; cbn [orb]; [|exact Hpost].
      rewrite Hnk, F in Hpost. injection Hpost as <-. exact Hl1.
Qed.

(* WINDOW_UPDATE emission, connection and stream alike: the increment brings the window to the
   available capacity, which the invariant keeps within the configured size (target, base)
   <= 2^31-1, so the checked addition cannot fail *)
Lemma wu_guard w a incr :
  unclaimed w a = Some incr -> RMINW <= w -> a <= RMAXW ->
  negb (in_i32r (w + incr)) || (RMAXW <? w + incr) = false /\ w + incr = a /\ 0 < incr.
Proof.
  intros EU Hw Ha. apply unclaimed_some in EU. destruct EU as (-> & U1 & _).
  rewrite in_i32r_true by rlia. cbn [negb orb]. lia.
Qed.

Theorem rstep_spec d st l :
  RInvD d st -> rlabel_ok l -> post d (rstep_eff_spec st l) (rstep st l).
Proof.
  intros HI Hl. pose proof (proj1 HI) as Hd.
  destruct l as [key init|key|sz|key k sz payload isrecv|key cap|key isrecv tr|key|target
                |new_init touched| |key streaming]; cbn [rstep rlabel_ok] in *.
  - (* RNew *)
    destruct (rfind key (k_strs st)) eqn:F; [exact I|].
    destruct (negb ((init =? k_init st) || (init =? 0))) eqn:E; [exact I|].
    apply post_ok.
    + assert (Hok : rok (k_init st) (mkR key init init 0 false true init false false)).
      { split; [|intros _; simp_r; rlia].
        apply rokb_intro; unfold rQ; simp_r; try rlia.
        intros _ _ _ _ Hu. destruct Hu. apply unclaimed_refl. }
      destruct HI as (C1 & C2 & C3 & C4 & C5 & C6 & C7 & C8 & C9 & C10 & C11 & C12).
      unfold RInvD, RInvG. simp_r. cbn [sum_infl map r_infl r_id].
      repeat apply conj; try assumption; try lia.
      * constructor; [apply rfind_none_notin; exact F|exact C11].
      * constructor; [exact Hok|exact C12].
    + split; [reflexivity|]. split; [|reflexivity].
      intros k s s' Fs Fs'. simp_r. cbn [rfind r_id] in Fs'.
      destruct (N.eqb_spec key k) as [->|_]; [congruence|]. rewrite Fs in Fs'. injection Fs' as <-. lia.
  - (* RRemove *)
    destruct (rfind key (k_strs st)) as [s|] eqn:F; [|exact I].
    destruct (r_infl s =? 0) eqn:E; [|exact I].
    destruct HI as (C1 & C2 & C3 & C4 & C5 & C6 & C7 & C8 & C9 & C10 & C11 & C12).
    apply post_ok.
    + unfold RInvD, RInvG. simp_r. rewrite (sum_rdel _ _ _ F).
      repeat apply conj; auto using rdel_ids_NoDup; try lia.
      exact (incl_Forall (rdel_incl key _) C12).
    + split; [reflexivity|]. split; [|reflexivity].
      intros k x Fx. exists x. split; [exact (rfind_rdel _ _ _ _ C11 Fx)|lia].
  - (* RDataUnknown *)
    apply consume_release_post; [exact HI|lia].
  - (* RData *)
    destruct Hl as (Hp0 & Hp1 & Hsz).
    destruct (rfind key (k_strs st)) as [s|] eqn:F; [|exact I].
    destruct (RInvD_find _ _ _ _ HI F) as (-> & ((K1 & K2 & K3 & K4 & K5 & K6 & K7) & KL) & _).
    destruct k.
    + (* DIgnore *) apply consume_release_post; [exact HI|lia].
    + (* DProtoErr *) apply post_ok; [exact HI|apply data_eff_refused].
    + (* DStreamErr *)
      apply consume_post; [exact HI|lia|]. intros st1 HI1.
      destruct (release_conn_spec d st1 sz HI1 Hd ltac:(lia)) as (-> & HI2).
      apply post_ok; [exact HI2|]. now apply data_eff_same.
    + (* DConnErr *)
      apply consume_post; [exact HI|lia|]. intros st1 HI1.
      apply (post_err d (d + sz)); [lia|exact HI1|reflexivity|].
      now apply data_eff_same.
    + (* DNoRecv *)
      destruct isrecv; [exact I|].
      destruct (ras_size (r_win s) <? sz); [|apply consume_release_post; [exact HI|lia]].
      apply consume_post; [exact HI|lia|]. intros _ _. exact I.
    + (* DCharged *)
      destruct isrecv; cbn [negb]; [|exact I].
      destruct (r_isrecv s) eqn:ER; cbn [negb]; [|exact I].
      apply consume_post; [exact HI|lia|]. intros st1 HI1.
      destruct (ras_size (r_win s) <? sz) eqn:E1; [exact I|].
      destruct (negb (in_i32r (r_win s - sz)) || negb (in_i32r (r_avail s - sz))) eqn:E2.
      { apply (post_err d (d + sz)); [lia|exact HI1|reflexivity|].
        now apply data_eff_same. }
      cbv zeta.
      set (s2 := mkR (r_id s) (r_win s - sz) (r_avail s - sz) (r_infl s + sz) (r_pend s) true
                     (r_base s) (r_done s) (r_unl s)).
      assert (Hok2 : rok (k_init st) s2).
      { unfold s2. split; [|intros A; specialize (KL A); simp_r; rlia].
        apply rokb_intro; unfold rQ; simp_r; try rlia.
        (* the charged bytes are in flight, so nothing is owed unless the frame was empty *)
        intros _ A2 A3 A4 Hu. assert (sz = 0) as -> by lia. rewrite !Z.sub_0_r in Hu.
        apply (K7 ER A2 A3); [lia|exact Hu]. }
      assert (HI2 : RInvD d (kput st1 s2)).
      { apply (RInvD_upd d st s); auto; unfold RInvD, RInvG, st1, s2 in *; simp_r; lia. }
      assert (L2 : win_le_s st (kput st1 s2)) by (eapply win_le_s_upd; [reflexivity|exact F|unfold s2; simp_r; lia]).
      destruct (0 <? sz - payload) eqn:EP.
      * destruct (release_stream_spec d _ (r_id s) (sz - payload) s2 HI2 ltac:(lia) (rfind_rupd_same s2 _ s F))
          as [(A & _)|(st3 & -> & HI3 & W3 & L3 & _)]; [unfold s2 in A; simp_r; lia|].
        apply post_ok; [exact HI3|]. split; [left; rewrite W3; reflexivity|].
        split; [exact (win_le_s_trans _ _ _ L2 L3)|reflexivity].
      * apply post_ok; [exact HI2|]. split; [left; reflexivity|]. split; [exact L2|reflexivity].
  - (* RRelease *)
    destruct (rfind key (k_strs st)) as [s|] eqn:F; [|unfold release_stream; rewrite F; exact I].
    destruct (release_stream_spec d st key cap s HI ltac:(lia) F) as [(_ & ->)|(st' & -> & HI' & HE)].
    + apply post_ok; [exact HI|]. now apply rquiet_same.
    + apply post_ok; assumption.
  - (* RClear *)
    destruct (rfind key (k_strs st)) as [s|] eqn:F; [|exact I].
    destruct isrecv; [exact I|].
    destruct (r_infl s <? tr) eqn:E; [exact I|].
    destruct (RInvD_find _ _ _ _ HI F) as (-> & (Hb & KL) & _).
    destruct (hand_back_post d st s (mkR (r_id s) (r_win s) (r_avail s) (r_infl s - tr) (r_pend s) false
                                         (r_base s) (r_done s) (r_unl s)) tr HI F) as (P1 & P0);
      simp_r; try lia.
    { split; [|exact KL]. apply (rokb_inactive s); simp_r; auto; lia. }
    destruct (0 <? tr) eqn:E0; [exact P1|apply P0; lia].
  - (* RReleaseClosed *)
    destruct (rfind key (k_strs st)) as [s|] eqn:F; [|exact I].
    destruct (RInvD_find _ _ _ _ HI F) as (-> & (Hb & KL) & _).
    destruct (hand_back_post d st s (mkR (r_id s) (r_win s) (r_avail s) 0 (r_pend s) (r_isrecv s)
                                         (r_base s) true (r_unl s)) (r_infl s) HI F) as (P1 & P0);
      simp_r; try lia.
    { split; [|exact KL]. apply (rokb_inactive s); simp_r; auto. split; [lia|apply Hb]. }
    { apply Hb. }
    destruct (r_infl s =? 0) eqn:E0; [apply P0; lia|exact P1].
  - (* RSetTarget *)
    cbv zeta.
    destruct (negb (in_i32r (k_avail st + k_infl st))) eqn:E0.
    { apply post_ok; [exact HI|]. now apply rquiet_same. }
    destruct (k_avail st + k_infl st <? 0) eqn:E1; [rlia|].
    set (a := if k_avail st + k_infl st <? target
              then k_avail st + (target - (k_avail st + k_infl st))
              else k_avail st - (k_avail st + k_infl st - target)).
    assert (Ha : a = target - k_infl st) by (unfold a; destruct (k_avail st + k_infl st <? target); lia).
    destruct (negb (in_i32r a)) eqn:E2.
    { apply post_ok; [exact HI|]. now apply rquiet_same. }
    apply post_ok; [|now apply rquiet_same].
    destruct HI as (C1 & C2 & C3 & C4 & C5 & C6 & C7 & C8 & C9 & C10 & C11 & C12).
    unfold RInvD, RInvG. simp_r. repeat apply conj; auto; rlia.
  - (* RApplySettings *)
    destruct (negb (nodup_keysr touched)) eqn:EN; [exact I|]. apply negb_false_iff in EN.
    cbv zeta.
    pose proof HI as (C1 & C2 & C3 & C4 & C5 & C6 & C7 & C8 & C9 & C10 & C11 & C12).
    destruct (new_init - k_init st =? 0) eqn:E0.
    + destruct touched; [|exact I]. assert (new_init = k_init st) as -> by lia.
      apply post_ok; [exact HI|]. split; [reflexivity|]. split; [intros _; now apply win_le_s_same|reflexivity].
    + set (st0 := mkK (k_win st) (k_avail st) (k_infl st) new_init (k_target st) (k_strs st)).
      assert (HI0 : RInvG rokb d st0).
      { unfold st0, RInvG. simp_r. repeat apply conj; auto; try lia.
        exact (Forall_impl _ (fun x Hx => proj1 Hx) C12). }
      assert (Hlink0 : forall k s, rfind k (k_strs st0) = Some s -> mem_key k touched = true -> rlink (k_init st) s).
      { intros k s F _. exact (proj2 (Forall_rfind _ _ _ _ C12 F)). }
      pose proof (settings_streams_ok d (k_init st) (new_init - k_init st) touched st0 HI0
                    eq_refl EN Hlink0) as X.
      destruct (settings_streams st0 (new_init - k_init st) touched) as [st1 o|n|n]; [|exact I|exact X].
      destruct X as (-> & HI1 & Hinit & Hwin & Hle & Hpost).
      cbn [rhas_conn_err existsb]. apply post_ok.
      * destruct HI1 as (D1 & D2 & D3 & D4 & D5 & D6 & D7 & D8 & D9 & D10 & D11 & D12).
        unfold RInvD, RInvG. simp_r. rewrite mark_done_sum, mark_done_ids.
        repeat apply conj; auto.
        rewrite mark_done_map. apply Forall_map, Forall_forall. intros s1 HIn.
        pose proof (proj1 (Forall_forall _ _) D12 _ HIn) as Hb1.
        pose proof (Hpost _ _ (In_rfind _ _ D11 HIn)) as Hl1. unfold mark1.
        destruct (mem_key (r_id s1) touched); [split; [exact Hb1|rewrite Hinit; exact Hl1]|].
        split; [|intros A; discriminate A]. apply (rokb_inactive s1); simp_r; auto. split; [apply Hb1|lia].
      * split; [exact Hwin|]. split; [|reflexivity].
        intros Hn. apply (win_le_s_trans _ st1); [apply Hle; lia|apply (win_le_s_mark _ _ touched); reflexivity].
  - (* RConnWU *)
    destruct (unclaimed (k_win st) (k_avail st)) as [incr|] eqn:EU; [|exact I].
    destruct (wu_guard _ _ _ EU) as (-> & Hw & Hpos); try rlia.
    apply post_ok; [apply (RInvD_flow d); auto; rlia|].
    split; [reflexivity|]. exists incr. unfold conn_emission. simp_r. repeat apply conj; auto; rlia.
  - (* RStreamWUPop *)
    destruct (rfind key (k_strs st)) as [s|] eqn:F; [|exact I].
    destruct (RInvD_find _ _ _ _ HI F) as (-> & ((K1 & K2 & K3 & K4 & K5 & K6 & K7) & KL) & _).
    destruct streaming; cbn [negb].
    + destruct (unclaimed (r_win s) (r_avail s)) as [incr|] eqn:EU.
      * destruct (wu_guard _ _ _ EU) as (-> & Hw & Hpos); try lia.
        apply post_ok.
        -- apply (RInvD_upd d st s); simp_r; auto; try rlia.
           split; [|intros A; specialize (KL A); simp_r; lia].
           apply rokb_intro; unfold rQ; simp_r; try lia.
           intros _ _ _ _ Hu. destruct Hu. rewrite Hw. apply unclaimed_refl.
        -- split; [reflexivity|]. split; [intros k Hk; apply rfind_rupd_other, Hk|]. right. exists incr.
           split; [reflexivity|]. split; [exact Hpos|]. eexists; eexists.
           split; [exact F|]. split; [exact (rfind_rupd_same (mkR _ _ _ _ _ _ _ _ _) _ s F)|].
           simp_r. unfold rlink in KL. repeat apply conj; lia.
      * apply post_ok.
        -- apply (RInvD_upd d st s); simp_r; auto; try rlia.
           split; [|exact KL]. apply rokb_intro; unfold rQ; simp_r; try lia.
           intros _ _ _ _ Hu. destruct Hu. exact EU.
        -- split; [reflexivity|]. split; [intros k Hk; apply rfind_rupd_other, Hk|left; reflexivity].
    + apply post_ok.
      * apply (RInvD_upd d st s); simp_r; auto; try rlia.
        split; [|exact KL]. apply (rokb_inactive s); simp_r; auto; try lia. repeat apply conj; assumption.
      * eapply rquiet_upd; [reflexivity|reflexivity|exact F|simp_r; lia].
Qed.

Theorem rstep_eff d st l st' o :
  RInvD d st -> rlabel_ok l -> rstep st l = ROk st' o -> rstep_eff_spec st l st' o.
Proof. intros HI Hl E. pose proof (rstep_spec d st l HI Hl) as X. rewrite E in X. apply X. Qed.
