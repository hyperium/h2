(* The HPACK header-block decoder (property C11).  The reference decoder of Ref/Rfc7541Block.v decides the RFC relation
   [block_decodes]; the model of h2's decoder (Model/HpackDec.v) is sound for it and, up to http-crate validation,
   complete; the dynamic table stays well-formed over every history; a block fed in fragments decodes as the whole
   block does, with one known exception.  [hd] is an arbitrary Huffman string decoder, the integer limit is h2's. *)
From Coq Require Import String.
From H2V Require Import Base.Tac Base.Bytes Gen.StaticTable.
From H2V Require Import Ref.Rfc7541Static Ref.Rfc7541Int Ref.Rfc7541Block.
From H2V Require Import Model.HttpTokens Model.HpackInt Model.HpackDec Proofs.HpackIntProofs.
Local Open Scope N_scope.

Notation rfield := (list N * list N)%type (only parsing).
Notation rlenN := Rfc7541Block.lenN.

Theorem gen_static_is_rfc :
  map snd static_get = rfc_static /\
  map fst static_get = map N.of_nat (seq 1 61) /\
  get_static_last = rfc_static_len /\
  get_dyn_base = rfc_static_len + 1 /\
  dyn_offset = rfc_static_len + 1.
Proof. repeat split; vm_compute; reflexivity. Qed.

(* index_static (encoder side) against get_static: an exact hit names the entry with that name
   and value, a name-only hit names the FIRST entry with that name *)
Fixpoint first_index_of (name : list N) (l : list (N * (list N * list N))) : option N :=
  match l with
  | [] => None
  | (i, (n, _)) :: l' => if list_N_eqb n name then Some i else first_index_of name l'
  end.

Definition static_index_entry_ok (e : list N * option (list N) * N * bool) : bool :=
  let '(name, ov, idx, exact) := e in
  match get_static idx with
  | None => false
  | Some (n, v) =>
    list_N_eqb n name &&
    match ov with
    | Some v' => exact && list_N_eqb v v'
    | None => negb exact &&
              match first_index_of name static_get with Some i => i =? idx | None => false end
    end
  end.

(* every static entry is reachable through index_static: by name, and by value when it has one *)
Definition static_get_entry_covered (e : N * (list N * list N)) : bool :=
  let '(i, (n, v)) := e in
  existsb (fun x => let '(name, ov, _, _) := x in
                    list_N_eqb name n && match ov with None => true | Some _ => false end)
          static_index &&
  match v with
  | [] => true
  | _ :: _ => existsb (fun x => let '(name, ov, idx, exact) := x in
                                list_N_eqb name n && (idx =? i) && exact &&
                                match ov with Some v' => list_N_eqb v' v | None => false end)
                      static_index
  end.

Theorem static_index_inverse :
  forallb static_index_entry_ok static_index = true /\
  forallb static_get_entry_covered static_get = true.
Proof. split; vm_compute; reflexivity. Qed.

(* the same, unfolded for one entry *)
Corollary static_index_inverse_entry name ov idx exact :
  In (name, ov, idx, exact) static_index ->
  exists v, get_static idx = Some (name, v) /\
            match ov with Some v' => exact = true /\ v = v' | None => exact = false end.
Proof.
  intros HIn. destruct static_index_inverse as [H _].
  rewrite forallb_forall in H. specialize (H _ HIn). unfold static_index_entry_ok in H.
  destruct (get_static idx) as [[n v]|]; [|discriminate].
  apply andb_true_iff in H. destruct H as [Hn H]. apply list_N_eqb_eq in Hn. subst n.
  exists v. split; [reflexivity|]. destruct ov as [v'|]; apply andb_true_iff in H; destruct H as [He Hv].
  - apply list_N_eqb_eq in Hv. auto.
  - destruct exact; [discriminate|reflexivity].
Qed.

Lemma assoc_N_seq {A} : forall (l : list (N * A)) k i,
  map fst l = map N.of_nat (seq k (length l)) -> N.of_nat k <= i ->
  assoc_N i l = nthN (map snd l) (i - N.of_nat k).
Proof.
  induction l as [|[j v] l IH]; intros k i Hk Hi; cbn [assoc_N map nthN snd]; [reflexivity|].
  cbn [length seq map fst] in Hk. injection Hk as -> Hk.
  destruct (i =? N.of_nat k) eqn:E.
  - replace (i - N.of_nat k =? 0) with true by lia. reflexivity.
  - replace (i - N.of_nat k =? 0) with false by lia.
    rewrite (IH (S k) i Hk) by lia. f_equal. lia.
Qed.

Lemma get_static_rfc i : 1 <= i -> get_static i = nthN rfc_static (i - 1).
Proof.
  intros Hi. destruct gen_static_is_rfc as (Hs & Hk & _).
  unfold get_static. rewrite <- Hs. apply (assoc_N_seq static_get 1 i Hk Hi).
Qed.

Lemma nthN_lt {A} : forall (l : list A) n, n < rlenN l -> nthN l n <> None.
Proof.
  unfold Rfc7541Block.lenN.
  induction l as [|x l IH]; intros n Hn; cbn [nthN length] in *; [lia|].
  destruct (n =? 0) eqn:E; [discriminate|]. apply IH. lia.
Qed.

Lemma split_at_sound : forall l n a b, split_at n l = Some (a, b) -> l = a ++ b /\ rlenN a = n.
Proof.
  unfold Rfc7541Block.lenN.
  induction l as [|x l IH]; intros n a b; cbn [split_at]; destruct (n =? 0) eqn:E; try discriminate.
  1, 2: intros H; inversion H; split; [reflexivity|cbn [length]; lia].
  destruct (split_at (n - 1) l) as [[a' b']|] eqn:E2; [|discriminate].
  intros H; inversion H; subst. destruct (IH _ _ _ E2) as [-> Hl].
  split; [reflexivity|cbn [length]; lia].
Qed.

Lemma split_at_app a b : split_at (rlenN a) (a ++ b) = Some (a, b).
Proof.
  unfold Rfc7541Block.lenN. induction a as [|x a IH]; cbn [app length split_at].
  - destruct b; reflexivity.
  - replace (N.of_nat (S (length a)) =? 0) with false by lia.
    replace (N.of_nat (S (length a)) - 1) with (N.of_nat (length a)) by lia.
    rewrite IH. reflexivity.
Qed.

Lemma ref_string_sound hd L bs s rest :
  ref_string hd L bs = Some (s, rest) -> exists enc, bs = enc ++ rest /\ string_lit hd L enc s.
Proof.
  unfold ref_string. destruct bs as [|b t]; [discriminate|].
  destruct (ref_decode_int L 7 (b :: t)) as [[len r1]|] eqn:E1; [|discriminate].
  destruct (split_at len r1) as [[raw r2]|] eqn:E2; [|discriminate].
  apply ref_decode_int_sound in E1. destruct E1 as (enc & Eb & Hi).
  apply split_at_sound in E2. destruct E2 as [-> <-]. rewrite Eb, app_assoc.
  change (2 ^ 7) with 128 in Hi.
  destruct (b / 128 =? 0) eqn:E3.
  - intros H; inversion H; subst. apply N.eqb_eq in E3. rewrite E3 in Hi.
    exists (enc ++ s). split; [reflexivity|]. apply str_raw. exact Hi.
  - destruct (b / 128 =? 1) eqn:E4; [|discriminate].
    destruct (hd raw) as [s'|] eqn:E5; [|discriminate].
    intros H; inversion H; subst. apply N.eqb_eq in E4. rewrite E4 in Hi.
    exists (enc ++ raw). split; [reflexivity|]. eapply str_huff; eassumption.
Qed.

Lemma ref_string_complete hd L enc s rest :
  string_lit hd L enc s -> ref_string hd L (enc ++ rest) = Some (s, rest).
Proof.
  intros H. inversion H as [e1 s' Hi|e1 raw s' Hi Hh]; subst; rewrite <- app_assoc.
  - destruct (ref_decode_int_complete L 7 0 _ _ (s ++ rest) Hi) as [Hr (b & t & -> & Hd)].
    change (2 ^ 7) with 128 in Hd. cbn [app] in *. unfold ref_string.
    rewrite Hr, split_at_app, Hd. reflexivity.
  - destruct (ref_decode_int_complete L 7 1 _ _ (raw ++ rest) Hi) as [Hr (b & t & -> & Hd)].
    change (2 ^ 7) with 128 in Hd. cbn [app] in *. unfold ref_string.
    rewrite Hr, split_at_app, Hd, Hh. reflexivity.
Qed.

Lemma string_lit_nonempty hd L enc s : string_lit hd L enc s -> (1 <= length enc)%nat.
Proof.
  intros H; inversion H as [e1 s' Hi|e1 raw s' Hi Hh]; subst;
    destruct (ref_decode_int_complete L 7 _ _ _ [] Hi) as [_ (b & t & -> & _)]; cbn [app length]; lia.
Qed.

Lemma ref_lit_name_sound hd L dyn p b t n rest :
  ref_lit_name hd L dyn p (b :: t) = Some (n, rest) ->
  exists enc, b :: t = enc ++ rest /\ lit_name hd L dyn p (b / 2 ^ p) enc n.
Proof.
  unfold ref_lit_name.
  destruct (ref_decode_int L p (b :: t)) as [[i r1]|] eqn:E1; [|discriminate].
  apply ref_decode_int_sound in E1. destruct E1 as (enc & Eb & Hi).
  destruct (i =? 0) eqn:E2.
  - apply N.eqb_eq in E2. subst i. intros H.
    apply ref_string_sound in H. destruct H as (senc & -> & Hs).
    exists (enc ++ senc). split; [rewrite Eb, app_assoc; reflexivity|].
    apply ln_new; assumption.
  - destruct (lookup dyn i) as [[n' v0]|] eqn:E3; [|discriminate].
    intros H; inversion H; subst. exists enc. split; [exact Eb|].
    eapply ln_indexed; [exact Hi|lia|exact E3].
Qed.

(* first octet of a representation with a given prefix/pattern *)
Lemma ref_lit_name_complete hd L dyn p hi enc n rest :
  lit_name hd L dyn p hi enc n ->
  ref_lit_name hd L dyn p (enc ++ rest) = Some (n, rest) /\
  exists b t, enc = b :: t /\ b / 2 ^ p = hi.
Proof.
  intros H. inversion H as [e i n' v0 Hi Hnz Hl|e nenc n' Hi Hs]; subst; unfold ref_lit_name.
  - destruct (ref_decode_int_complete L p hi _ _ rest Hi) as [-> Hb].
    split; [|exact Hb]. replace (i =? 0) with false by lia. rewrite Hl. reflexivity.
  - destruct (ref_decode_int_complete L p hi _ _ (nenc ++ rest) Hi) as [Hr (b & t & -> & Hd)].
    rewrite <- app_assoc, Hr. split; [apply ref_string_complete; exact Hs|].
    exists b, (t ++ nenc). split; [reflexivity|exact Hd].
Qed.

Lemma ref_literal_sound hd L dyn p b t f rest :
  ref_literal hd L dyn p (b :: t) = Some (f, rest) ->
  exists nenc venc, b :: t = (nenc ++ venc) ++ rest /\
    lit_name hd L dyn p (b / 2 ^ p) nenc (fst f) /\ string_lit hd L venc (snd f).
Proof.
  unfold ref_literal.
  destruct (ref_lit_name hd L dyn p (b :: t)) as [[n r1]|] eqn:E1; [|discriminate].
  destruct (ref_string hd L r1) as [[v r2]|] eqn:E2; [|discriminate].
  intros H; inversion H; subst. cbn [fst snd].
  apply ref_lit_name_sound in E1. destruct E1 as (nenc & Eb & Hn).
  apply ref_string_sound in E2. destruct E2 as (venc & -> & Hv).
  exists nenc, venc. split; [rewrite Eb, app_assoc; reflexivity|]. split; assumption.
Qed.

Lemma ref_literal_complete hd L dyn p hi nenc n venc v rest :
  lit_name hd L dyn p hi nenc n -> string_lit hd L venc v ->
  ref_literal hd L dyn p ((nenc ++ venc) ++ rest) = Some ((n, v), rest) /\
  exists b t, nenc ++ venc = b :: t /\ b / 2 ^ p = hi.
Proof.
  intros Hn Hv. unfold ref_literal.
  destruct (ref_lit_name_complete hd L dyn p hi nenc n (venc ++ rest) Hn) as [Hr (b & t & -> & Hd)].
  rewrite <- app_assoc, Hr. rewrite (ref_string_complete hd L venc v rest Hv).
  split; [reflexivity|]. exists b, (t ++ venc). split; [reflexivity|exact Hd].
Qed.

Theorem ref_field_step_sound hd L max dyn bs f dyn1 rest :
  ref_field_step hd L max dyn bs = Some (f, dyn1, rest) ->
  exists enc, bs = enc ++ rest /\ field_repr hd L max dyn enc f dyn1.
Proof.
  unfold ref_field_step. destruct bs as [|b t]; [discriminate|].
  destruct (b / 128 =? 1) eqn:E1.
  - destruct (ref_decode_int L 7 (b :: t)) as [[i r1]|] eqn:E2; [|discriminate].
    destruct (lookup dyn i) as [f'|] eqn:E3; [|discriminate].
    intros H; inversion H; subst.
    apply ref_decode_int_sound in E2. destruct E2 as (enc & Eb & Hi).
    change (2 ^ 7) with 128 in Hi. apply N.eqb_eq in E1. rewrite E1 in Hi.
    exists enc. split; [exact Eb|]. eapply fr_indexed; eassumption.
  - destruct (b / 64 =? 1) eqn:E2.
    + destruct (ref_literal hd L dyn 6 (b :: t)) as [[[n v] r1]|] eqn:E3; [|discriminate].
      intros H; inversion H; subst.
      apply ref_literal_sound in E3. destruct E3 as (nenc & venc & Eb & Hn & Hv).
      change (2 ^ 6) with 64 in Hn. apply N.eqb_eq in E2. rewrite E2 in Hn.
      exists (nenc ++ venc). split; [exact Eb|]. apply fr_incremental; assumption.
    + destruct ((b / 16 =? 0) || (b / 16 =? 1)) eqn:E3; [|discriminate].
      destruct (ref_literal hd L dyn 4 (b :: t)) as [[[n v] r1]|] eqn:E4; [|discriminate].
      intros H; inversion H; subst.
      apply ref_literal_sound in E4. destruct E4 as (nenc & venc & Eb & Hn & Hv).
      change (2 ^ 4) with 16 in Hn.
      exists (nenc ++ venc). split; [exact Eb|].
      apply orb_true_iff in E3. destruct E3 as [E3|E3]; apply N.eqb_eq in E3; rewrite E3 in Hn.
      * apply fr_without; assumption.
      * apply fr_never; assumption.
Qed.

Theorem ref_field_step_complete hd L max dyn enc f dyn1 rest :
  field_repr hd L max dyn enc f dyn1 ->
  ref_field_step hd L max dyn (enc ++ rest) = Some (f, dyn1, rest) /\
  exists b t, enc = b :: t /\ b / 32 <> 1.
Proof.
  intros H. inversion H as [e i f' Hi Hl|nenc n venc v Hn Hv|nenc n venc v Hn Hv|nenc n venc v Hn Hv]; subst.
  - destruct (ref_decode_int_complete L 7 1 _ _ rest Hi) as [Hr (b & t & -> & Hd)].
    split; [|exists b, t; split; [reflexivity|lia]].
    cbn [app] in *. unfold ref_field_step. rewrite Hr, Hl. replace (b / 128 =? 1) with true by lia. reflexivity.
  - destruct (ref_literal_complete hd L _ 6 1 _ n _ v rest Hn Hv) as [Hr (b & t & E & Hd)]. rewrite E in *.
    split; [|exists b, t; split; [reflexivity|lia]].
    cbn [app] in *. unfold ref_field_step. rewrite Hr.
    replace (b / 128 =? 1) with false by lia. replace (b / 64 =? 1) with true by lia. reflexivity.
  - destruct (ref_literal_complete hd L _ 4 0 _ n _ v rest Hn Hv) as [Hr (b & t & E & Hd)]. rewrite E in *.
    split; [|exists b, t; split; [reflexivity|lia]].
    cbn [app] in *. unfold ref_field_step. rewrite Hr.
    replace (b / 128 =? 1) with false by lia. replace (b / 64 =? 1) with false by lia.
    replace (b / 16 =? 0) with true by lia. reflexivity.
  - destruct (ref_literal_complete hd L _ 4 1 _ n _ v rest Hn Hv) as [Hr (b & t & E & Hd)]. rewrite E in *.
    split; [|exists b, t; split; [reflexivity|lia]].
    cbn [app] in *. unfold ref_field_step. rewrite Hr.
    replace (b / 128 =? 1) with false by lia. replace (b / 64 =? 1) with false by lia.
    replace (b / 16 =? 0) with false by lia. replace (b / 16 =? 1) with true by lia. reflexivity.
Qed.

Theorem ref_update_step_sound L limit bs n rest :
  ref_update_step L limit bs = Some (n, rest) ->
  exists enc, bs = enc ++ rest /\ size_update_repr L limit enc n.
Proof.
  unfold ref_update_step. destruct bs as [|b t]; [discriminate|].
  destruct (b / 32 =? 1) eqn:E1; [|discriminate].
  destruct (ref_decode_int L 5 (b :: t)) as [[n' r1]|] eqn:E2; [|discriminate].
  destruct (n' <=? limit) eqn:E3; [|discriminate].
  intros H; inversion H; subst.
  apply ref_decode_int_sound in E2. destruct E2 as (enc & Eb & Hi).
  change (2 ^ 5) with 32 in Hi. apply N.eqb_eq in E1. rewrite E1 in Hi.
  exists enc. split; [exact Eb|]. constructor; [exact Hi|lia].
Qed.

Theorem ref_update_step_complete L limit enc n rest :
  size_update_repr L limit enc n ->
  ref_update_step L limit (enc ++ rest) = Some (n, rest) /\ (1 <= length enc)%nat.
Proof.
  intros H. inversion H as [e n' Hi Hle]; subst.
  destruct (ref_decode_int_complete L 5 1 _ _ rest Hi) as [Hr (b & t & -> & Hd)].
  split; [|cbn [length]; lia].
  cbn [app] in *. unfold ref_update_step. rewrite Hr.
  replace (b / 32 =? 1) with true by lia. replace (n <=? limit) with true by lia. reflexivity.
Qed.

Lemma ref_fields_sound hd L max : forall fuel dyn bs fs dyn',
  ref_fields hd L max fuel dyn bs = Some (fs, dyn') -> fields_decode hd L max dyn bs fs dyn'.
Proof.
  induction fuel as [|fuel IH]; intros dyn bs fs dyn' H; cbn [ref_fields] in H.
  - destruct bs; [inversion H; constructor|discriminate].
  - destruct bs as [|b t]; [inversion H; constructor|].
    destruct (ref_field_step hd L max dyn (b :: t)) as [[[f dyn1] rest]|] eqn:E1; [|discriminate].
    destruct (ref_fields hd L max fuel dyn1 rest) as [[fs' dyn2]|] eqn:E2; [|discriminate].
    inversion H; subst.
    apply ref_field_step_sound in E1. destruct E1 as (enc & -> & Hf).
    eapply fd_cons; [exact Hf|]. apply IH. exact E2.
Qed.

Lemma ref_fields_complete hd L max dyn bs fs dyn' :
  fields_decode hd L max dyn bs fs dyn' ->
  forall fuel, (length bs <= fuel)%nat -> ref_fields hd L max fuel dyn bs = Some (fs, dyn').
Proof.
  induction 1 as [dyn|dyn enc f dyn1 bs fs dyn' Hf _ IH]; intros fuel Hl.
  - destruct fuel; reflexivity.
  - destruct (ref_field_step_complete hd L max dyn enc f dyn1 bs Hf) as [Hs (b & t & -> & _)].
    cbn [app length] in *. rewrite app_length in Hl. destruct fuel as [|fuel]; [lia|].
    cbn [ref_fields]. rewrite Hs, IH by lia. reflexivity.
Qed.

Lemma fields_decode_no_update hd L max dyn bs fs dyn' limit :
  fields_decode hd L max dyn bs fs dyn' -> ref_update_step L limit bs = None.
Proof.
  intros H. inversion H as [|dyn0 enc f dyn1 bs' fs' dyn2 Hf _]; subst; [reflexivity|].
  destruct (ref_field_step_complete hd L max dyn enc f dyn1 bs' Hf) as [_ (b & t & -> & Hb)].
  cbn [app]. unfold ref_update_step. replace (b / 32 =? 1) with false by lia. reflexivity.
Qed.

Lemma ref_block_sound hd L limit : forall fuel dyn max bs fs dyn' max',
  ref_block hd L limit fuel dyn max bs = Some (fs, dyn', max') ->
  exists b1 b2 dyn1, bs = b1 ++ b2 /\ updates_decode L limit dyn max b1 dyn1 max' /\
                     fields_decode hd L max' dyn1 b2 fs dyn'.
Proof.
  induction fuel as [|fuel IH]; intros dyn max bs fs dyn' max' H; cbn [ref_block] in H; [discriminate|].
  destruct (ref_update_step L limit bs) as [[n rest]|] eqn:E1.
  - apply ref_update_step_sound in E1. destruct E1 as (enc & -> & Hu).
    apply IH in H. destruct H as (b1 & b2 & dyn1 & -> & Hud & Hfd).
    exists (enc ++ b1), b2, dyn1. split; [rewrite app_assoc; reflexivity|]. split; [|exact Hfd].
    eapply ud_cons; eassumption.
  - destruct (ref_fields hd L max (S fuel) dyn bs) as [[fs' dyn2]|] eqn:E2; [|discriminate].
    inversion H; subst. exists [], bs, dyn. split; [reflexivity|]. split; [constructor|].
    apply ref_fields_sound in E2. exact E2.
Qed.

Lemma ref_block_complete hd L limit dyn max b1 dyn1 max1 :
  updates_decode L limit dyn max b1 dyn1 max1 ->
  forall b2 fs dyn' fuel, fields_decode hd L max1 dyn1 b2 fs dyn' ->
  (length (b1 ++ b2) < fuel)%nat ->
  ref_block hd L limit fuel dyn max (b1 ++ b2) = Some (fs, dyn', max1).
Proof.
  induction 1 as [dyn max|dyn max enc n bs dyn1 max1 Hu _ IH]; intros b2 fs dyn' fuel Hfd Hl.
  - cbn [app] in *. destruct fuel as [|fuel]; [lia|]. cbn [ref_block].
    rewrite (fields_decode_no_update _ _ _ _ _ _ _ limit Hfd).
    rewrite (ref_fields_complete _ _ _ _ _ _ _ Hfd) by lia. reflexivity.
  - destruct (ref_update_step_complete L limit enc n (bs ++ b2) Hu) as [Hs Hne].
    rewrite <- app_assoc in *. rewrite app_length in Hl.
    destruct fuel as [|fuel]; [lia|]. cbn [ref_block]. rewrite Hs.
    apply IH; [exact Hfd|lia].
Qed.

(* the executable reference decoder decides the relation *)
Theorem ref_decode_block_spec hd L rs bs fs rs' :
  ref_decode_block hd L rs bs = Some (fs, rs') <-> block_decodes hd L rs bs fs rs'.
Proof.
  unfold ref_decode_block. split.
  - destruct (ref_block hd L (r_limit rs) (S (length bs)) (r_dyn rs) (r_max rs) bs)
      as [[[fs' dyn'] max']|] eqn:E; [|discriminate].
    intros H; inversion H; subst. apply ref_block_sound in E.
    destruct E as (b1 & b2 & dyn1 & -> & Hu & Hf).
    exists b1, b2, dyn1, max'. cbn [r_dyn r_max r_limit]. auto.
  - intros (b1 & b2 & dyn1 & max1 & -> & Hu & Hf & Hm & Hlim).
    rewrite (ref_block_complete hd L _ _ _ _ _ _ Hu b2 fs (r_dyn rs') _ Hf) by lia.
    destruct rs' as [d m l]. cbn [r_dyn r_max r_limit] in *. subst. reflexivity.
Qed.

(* so the relation is functional: a block has at most one decoding *)
Corollary block_decodes_functional hd L rs bs fs1 rs1 fs2 rs2 :
  block_decodes hd L rs bs fs1 rs1 -> block_decodes hd L rs bs fs2 rs2 -> fs1 = fs2 /\ rs1 = rs2.
Proof.
  intros H1 H2. apply ref_decode_block_spec in H1, H2. rewrite H1 in H2.
  inversion H2; auto.
Qed.

Lemma ref_reduction_signalled_spec L rs bs :
  ref_reduction_signalled L rs bs = true <-> reduction_signalled L rs bs.
Proof.
  unfold ref_reduction_signalled, reduction_signalled. rewrite orb_true_iff. split.
  - intros [H|H]; [left; lia|right].
    destruct (ref_update_step L (r_limit rs) bs) as [[n rest]|] eqn:E; [|discriminate].
    apply ref_update_step_sound in E. destruct E as (enc & -> & Hu). eauto.
  - intros [H|(enc & n & rest & -> & Hu)]; [left; lia|right].
    destruct (ref_update_step_complete L (r_limit rs) enc n rest Hu) as [-> _]. reflexivity.
Qed.

Theorem rfc_ref_decode_block_spec hd L rs bs fs rs' :
  rfc_ref_decode_block hd L rs bs = Some (fs, rs') <-> rfc_block_decodes hd L rs bs fs rs'.
Proof.
  unfold rfc_ref_decode_block, rfc_block_decodes.
  rewrite <- ref_decode_block_spec, <- ref_reduction_signalled_spec.
  destruct (ref_reduction_signalled L rs bs); split.
  - intros H; auto.
  - intros [H _]; exact H.
  - discriminate.
  - intros [_ H]; discriminate.
Qed.

Notation ent d := (t_entries (d_table d)).
Notation tmax d := (t_max (d_table d)).

Lemma split_n_at : forall l n, split_n n l = split_at n l.
Proof.
  (* the two fixpoints have the same body *)
  intros l n. reflexivity.
Qed.

Lemma nth_N_nthN {A} : forall (l : list A) n, nth_N l n = nthN l n.
Proof.
  intros l n. reflexivity.
Qed.

Definition consumed (bs rest : list N) : Prop := exists pre, bs = pre ++ rest /\ pre <> [].

Lemma consumed_cons b t : consumed (b :: t) t.
Proof. exists [b]. split; [reflexivity|discriminate]. Qed.

Lemma consumed_app a pre c : consumed a (pre ++ c) -> consumed a c.
Proof.
  intros (p & -> & Hne). exists (p ++ pre). split; [apply app_assoc|].
  destruct p; [contradiction|discriminate].
Qed.

Lemma consumed_trans a b c : consumed a b -> consumed b c -> consumed a c.
Proof. intros Hab (pre & -> & _). exact (consumed_app _ _ _ Hab). Qed.

Lemma consumed_octets bs rest : consumed bs rest -> octets bs -> octets rest.
Proof. intros (pre & -> & _) Ho. apply octets_app in Ho. apply Ho. Qed.

Lemma consumed_shorter bs rest : consumed bs rest -> (length rest < length bs)%nat.
Proof. intros (pre & -> & Hne). rewrite app_length. destruct pre; [contradiction|cbn [length]; lia]. Qed.

Lemma decode_int_loop_suffix : forall bs k s r v rest,
  decode_int_loop k s r bs = ROk v rest -> consumed bs rest.
Proof.
  induction bs as [|b t IH]; intros k s r v rest H; cbn [decode_int_loop] in H; [discriminate|].
  destruct (N.land b VARINT_FLAG =? 0).
  - inversion H; subst. apply consumed_cons.
  - destruct (k + 1 =? MAX_BYTES); [discriminate|].
    exact (consumed_trans _ _ _ (consumed_cons b t) (IH _ _ _ _ _ H)).
Qed.

Lemma decode_int_suffix p bs v rest : decode_int p bs = ROk v rest -> consumed bs rest.
Proof.
  unfold decode_int. destruct ((p <? 1) || (8 <? p)); [discriminate|].
  destruct bs as [|b t]; [discriminate|].
  destruct (N.land b (int_mask p) <? int_mask p).
  - intros H; inversion H; subst. apply consumed_cons.
  - intros H. exact (consumed_trans _ _ _ (consumed_cons b t) (decode_int_loop_suffix _ _ _ _ _ _ H)).
Qed.

Definition str_opt (r : rd (bool * list N)) : option (list N * list N) :=
  match r with ROk (_, s) rest => Some (s, rest) | RErr _ => None end.

Lemma try_decode_string_ref hd bs : octets bs ->
  str_opt (try_decode_string hd bs) = ref_string hd h2_int_limit bs.
Proof.
  intros Hb. unfold try_decode_string, ref_string. destruct bs as [|b t]; [reflexivity|].
  rewrite <- (decode_int_ref 7 (b :: t) ltac:(lia) Hb).
  apply octets_cons in Hb. destruct Hb as [Hb _].
  rewrite (land_128 b Hb).
  destruct (decode_int 7 (b :: t)) as [len r1|e]; cbn [rd_opt]; [|reflexivity].
  rewrite split_n_at. destruct (split_at len r1) as [[raw r2]|]; [|reflexivity].
  destruct (b <? 128) eqn:E.
  - replace (b / 128 =? 0) with true by lia. reflexivity.
  - replace (b / 128 =? 0) with false by lia. replace (b / 128 =? 1) with true by lia.
    destruct (hd raw); reflexivity.
Qed.

Lemma try_decode_string_suffix hd bs h s rest :
  try_decode_string hd bs = ROk (h, s) rest -> consumed bs rest.
Proof.
  unfold try_decode_string. destruct bs as [|b t]; [discriminate|].
  destruct (decode_int 7 (b :: t)) as [len r1|e] eqn:E1; [|discriminate].
  rewrite split_n_at. destruct (split_at len r1) as [[raw r2]|] eqn:E2; [|discriminate].
  apply decode_int_suffix in E1. apply split_at_sound in E2. destruct E2 as [-> _].
  intros H. replace rest with r2; [exact (consumed_app _ _ _ E1)|].
  destruct (N.land b 128 =? 128); [destruct (hd raw); [|discriminate]|]; inversion H; reflexivity.
Qed.

(* Table::get is the index address space of 2.3.3; the unreachable!() of get_static is never met *)
Definition tres_opt (r : tres) : option field :=
  match r with TOk f => Some f | _ => None end.

Lemma table_get_lookup t i :
  tres_opt (table_get t i) = lookup (t_entries t) i /\ table_get t i <> TPanic.
Proof.
  unfold table_get, lookup. destruct gen_static_is_rfc as (_ & _ & -> & -> & _).
  destruct (i =? 0) eqn:E0; [split; [reflexivity|discriminate]|].
  destruct (i <=? rfc_static_len) eqn:E1.
  - rewrite (get_static_rfc i) by lia.
    pose proof (nthN_lt rfc_static (i - 1)) as Hs. change (rlenN rfc_static) with rfc_static_len in Hs.
    destruct (nthN rfc_static (i - 1)); [split; [reflexivity|discriminate]|]. contradiction Hs; [lia|reflexivity].
  - rewrite nth_N_nthN. replace (i - (rfc_static_len + 1)) with (i - rfc_static_len - 1) by lia.
    destruct (nthN (t_entries t) (i - rfc_static_len - 1)); split; try reflexivity; discriminate.
Qed.

Definition field_valid (f : field) : bool :=
  match header_new (fst f) (snd f) with HOk _ => true | HErr _ => false end.

Lemma guard_ok b e f f' : guard b e f = HOk f' -> b = true /\ f' = f.
Proof. unfold guard. destruct b; [intros H; inversion H; auto|discriminate]. Qed.

Lemma guard_err b e0 f e : guard b e0 f = HErr e -> e = e0.
Proof. unfold guard. destruct b; [discriminate|intros H; inversion H; reflexivity]. Qed.

Lemma kind_of_inv n :
  match kind_of n with
  | KAuthority => n = n_authority | KMethod => n = n_method | KScheme => n = n_scheme
  | KPath => n = n_path | KProtocol => n = n_protocol | KStatus => n = n_status
  | KField => True
  end.
Proof.
  unfold kind_of.
  destruct (list_N_eqb n n_authority) eqn:E1; [apply list_N_eqb_eq; exact E1|].
  destruct (list_N_eqb n n_method) eqn:E2; [apply list_N_eqb_eq; exact E2|].
  destruct (list_N_eqb n n_scheme) eqn:E3; [apply list_N_eqb_eq; exact E3|].
  destruct (list_N_eqb n n_path) eqn:E4; [apply list_N_eqb_eq; exact E4|].
  destruct (list_N_eqb n n_protocol) eqn:E5; [apply list_N_eqb_eq; exact E5|].
  destruct (list_N_eqb n n_status) eqn:E6; [apply list_N_eqb_eq; exact E6|].
  exact I.
Qed.

(* kind_of tests the name in the order of Header::new *)
Lemma kind_of_cons c rest :
  kind_of (c :: rest) =
  if c =? 58 then
    if list_N_eqb rest (bstr "authority") then KAuthority
    else if list_N_eqb rest (bstr "method") then KMethod
    else if list_N_eqb rest (bstr "scheme") then KScheme
    else if list_N_eqb rest (bstr "path") then KPath
    else if list_N_eqb rest (bstr "protocol") then KProtocol
    else if list_N_eqb rest (bstr "status") then KStatus
    else KField
  else KField.
Proof.
  unfold kind_of.
  change n_authority with (58 :: bstr "authority"). change n_method with (58 :: bstr "method").
  change n_scheme with (58 :: bstr "scheme"). change n_path with (58 :: bstr "path").
  change n_protocol with (58 :: bstr "protocol"). change n_status with (58 :: bstr "status").
  cbn [list_N_eqb]. destruct (c =? 58); reflexivity.
Qed.

Lemma status_ok_len v : status_ok v = true -> lenN v = 3.
Proof.
  unfold status_ok. destruct v as [|a [|b [|c [|x v]]]]; try discriminate. reflexivity.
Qed.

Definition entry_ok (f : field) : Prop := kind_of (fst f) = KStatus -> lenN (snd f) = 3.

Lemma into_entry_ok n v f : into_entry n v = HOk f -> f = (n, v) /\ entry_ok f.
Proof.
  unfold into_entry, entry_ok. destruct (kind_of n) eqn:K; intros H; apply guard_ok in H;
    destruct H as [H ->]; (split; [reflexivity|]); cbn [fst snd]; intros K'; try congruence.
  apply status_ok_len. exact H.
Qed.

Lemma header_new_cases n v :
  match header_new n v with
  | HOk f => into_entry n v = HOk f
  | HErr e => is_need_more e = false
  end.
Proof.
  assert (G : forall b f, match guard b InvalidUtf8 f with
                          | HOk f' => guard b InvalidUtf8 f = HOk f'
                          | HErr e => is_need_more e = false
                          end) by (intros [|] f; reflexivity).
  unfold header_new, into_entry. destruct n as [|c rest]; [reflexivity|]. rewrite kind_of_cons.
  destruct (c =? 58).
  - destruct (list_N_eqb rest (bstr "authority")); [apply G|].
    destruct (list_N_eqb rest (bstr "method")); [apply G|].
    destruct (list_N_eqb rest (bstr "scheme")); [apply G|].
    destruct (list_N_eqb rest (bstr "path")); [apply G|].
    destruct (list_N_eqb rest (bstr "protocol")); [apply G|].
    destruct (list_N_eqb rest (bstr "status")); [|reflexivity].
    (* Header::new turns InvalidStatusCode into InvalidUtf8, into_entry does not *)
    unfold guard. destruct (status_ok v); reflexivity.
  - destruct (name_ok (c :: rest)); [apply G|reflexivity].
Qed.

Lemma header_new_into_entry n v f : header_new n v = HOk f -> into_entry n v = HOk f.
Proof. intros H. pose proof (header_new_cases n v) as C. rewrite H in C. exact C. Qed.

Lemma header_new_err_hard n v e : header_new n v = HErr e -> is_need_more e = false.
Proof. intros H. pose proof (header_new_cases n v) as C. rewrite H in C. exact C. Qed.

Lemma into_entry_err_hard n v e : into_entry n v = HErr e -> is_need_more e = false.
Proof.
  unfold into_entry. destruct (kind_of n); intros H; apply guard_err in H; subst e; reflexivity.
Qed.

Lemma header_new_ok n v f : header_new n v = HOk f -> f = (n, v) /\ entry_ok f.
Proof. intros H. apply into_entry_ok, header_new_into_entry, H. Qed.

(* Header::len is the entry size of 4.1, given that a stored :status value has three octets *)
Lemma hlen_entry_size f : entry_ok f -> hlen f = entry_size f.
Proof.
  unfold entry_ok, hlen, entry_size, HpackDec.lenN, Rfc7541Block.lenN.
  destruct f as [n v]. cbn [fst snd]. intros Hok.
  pose proof (kind_of_inv n) as Hn.
  destruct (kind_of n); try (subst n; reflexivity).
  - reflexivity.
  - subst n. rewrite (Hok eq_refl). reflexivity.
Qed.

Lemma entry_size_pos (f : rfield) : 32 <= entry_size f.
Proof. unfold entry_size. lia. Qed.

Lemma table_size_app a b : table_size (a ++ b) = table_size a + table_size b.
Proof. induction a as [|x a IH]; cbn [app table_size]; [lia|rewrite IH; lia]. Qed.

Lemma table_size_rev l : table_size (rev l) = table_size l.
Proof.
  induction l as [|x l IH]; cbn [rev table_size]; [reflexivity|].
  rewrite table_size_app, IH. cbn [table_size]. lia.
Qed.

Lemma kp_all : forall l B, table_size l <= B -> keep_prefix B l = l.
Proof.
  induction l as [|x l IH]; intros B H; cbn [keep_prefix table_size] in *; [reflexivity|].
  replace (entry_size x <=? B) with true by lia. rewrite IH by lia. reflexivity.
Qed.

Lemma kp_drop_last : forall l B x, B < table_size (l ++ [x]) ->
  keep_prefix B (l ++ [x]) = keep_prefix B l.
Proof.
  induction l as [|y l IH]; intros B x H; cbn [app keep_prefix table_size] in *.
  - replace (entry_size x <=? B) with false by lia. reflexivity.
  - destruct (entry_size y <=? B) eqn:E; [|reflexivity].
    rewrite IH by lia. reflexivity.
Qed.

(* keep_prefix is the eviction of 4.3: what survives is a prefix, it fits, and evicting stopped
   as soon as it fitted (the next older entry would not fit any more) *)
Lemma keep_prefix_spec : forall l B,
  exists dropped, l = keep_prefix B l ++ dropped /\ table_size (keep_prefix B l) <= B /\
                  match dropped with [] => True | x :: _ => B < table_size (keep_prefix B l) + entry_size x end.
Proof.
  induction l as [|x l IH]; intros B; cbn [keep_prefix].
  - exists []. cbn [app table_size]. split; [reflexivity|]. split; [lia|exact I].
  - destruct (entry_size x <=? B) eqn:E.
    + destruct (IH (B - entry_size x)) as (dr & Hl & Hf & Hd).
      exists dr. cbn [app table_size]. split; [rewrite <- Hl; reflexivity|]. split; [lia|].
      destruct dr; [exact I|lia].
    + exists (x :: l). cbn [app table_size]. split; [reflexivity|]. split; lia.
Qed.

Lemma kp_fits : forall l B, table_size (keep_prefix B l) <= B.
Proof. intros l B. destruct (keep_prefix_spec l B) as (dropped & _ & H & _). exact H. Qed.

Lemma kp_Forall (P : rfield -> Prop) : forall l B, Forall P l -> Forall P (keep_prefix B l).
Proof.
  intros l B H. destruct (keep_prefix_spec l B) as (dropped & E & _).
  rewrite E in H. apply Forall_app in H. apply H.
Qed.

(* Table::reserve and Table::consolidate pop from the back until the size fits.  When the size
   field is the RFC size of the entries, what remains is the longest prefix that fits;
   consolidate is reserve with nothing to add, and its panic!() (no entry left, size still too
   large) cannot happen because an empty table has size 0. *)
Lemma evict_back_spec : forall old need max, Forall entry_ok old ->
  exists r, rev r = keep_prefix (max - need) (rev old) /\
            reserve_back old (table_size old) need max = (r, table_size r) /\
            (need = 0 -> consolidate_back old (table_size old) max = Some (r, table_size r)).
Proof.
  induction old as [|last more IH]; intros need max Hok; cbn [reserve_back consolidate_back].
  - exists []. split; [reflexivity|]. split; [destruct (table_size [] + need <=? max); reflexivity|].
    intros _. replace (table_size [] <=? max) with true by (cbn [table_size]; lia). reflexivity.
  - inversion Hok as [|x l Hl Hm]; subst.
    destruct (IH need max Hm) as (r & Hrev & Hr & Hc).
    rewrite (hlen_entry_size last Hl).
    replace (table_size (last :: more) - entry_size last) with (table_size more)
      by (cbn [table_size]; lia).
    destruct (table_size (last :: more) + need <=? max) eqn:E.
    + exists (last :: more). split; [symmetry; apply kp_all; rewrite table_size_rev; lia|].
      split; [reflexivity|]. intros ->. rewrite N.add_0_r in E. rewrite E. reflexivity.
    + exists r. split; [|split; [exact Hr|]].
      * cbn [rev]. rewrite kp_drop_last; [exact Hrev|].
        rewrite table_size_app, table_size_rev. cbn [table_size] in *.
        pose proof (entry_size_pos last). lia.
      * intros ->. rewrite N.add_0_r in E. rewrite E. apply Hc. reflexivity.
Qed.

Definition wf_table (t : table) : Prop :=
  Forall entry_ok (t_entries t) /\ t_size t = table_size (t_entries t) /\ t_size t <= t_max t.

Definition wf (d : decoder) : Prop := wf_table (d_table d).

Lemma rev_eq_inv {A} (a b : list A) : rev a = b -> a = rev b.
Proof. intros <-. rewrite rev_involutive. reflexivity. Qed.

Definition table_of (es : list field) (max : N) : table := mk_table es (table_size es) max.

Lemma wf_table_of es max : Forall entry_ok es -> table_size es <= max -> wf_table (table_of es max).
Proof. intros Hok Hle. split; [exact Hok|]. split; [reflexivity|exact Hle]. Qed.

Lemma add_entry_fits max f es : table_size (add_entry max f es) <= max.
Proof.
  unfold add_entry. destruct (entry_size f <=? max) eqn:E; cbn [table_size]; [|lia].
  pose proof (kp_fits es (max - entry_size f)). lia.
Qed.

Lemma table_insert_spec t f : wf_table t -> entry_ok f ->
  table_insert t f = table_of (add_entry (t_max t) f (t_entries t)) (t_max t) /\
  wf_table (table_insert t f).
Proof.
  intros (Hok & Hs & Hle) Hf.
  assert (E : table_insert t f = table_of (add_entry (t_max t) f (t_entries t)) (t_max t)).
  { unfold table_insert, table_reserve. rewrite Hs, <- table_size_rev.
    destruct (evict_back_spec (rev (t_entries t)) (hlen f) (t_max t) (Forall_rev Hok)) as (r & Hrev & -> & _).
    cbn [t_size t_max t_entries]. rewrite rev_involutive in Hrev. rewrite <- (table_size_rev r), Hrev.
    rewrite (hlen_entry_size f Hf). unfold add_entry, table_of.
    set (K := keep_prefix (t_max t - entry_size f) (t_entries t)).
    pose proof (kp_fits (t_entries t) (t_max t - entry_size f)) as Hfit. fold K in Hfit.
    destruct (entry_size f <=? t_max t) eqn:Efit.
    - replace (table_size K + entry_size f <=? t_max t) with true by lia.
      cbn [table_size]. f_equal. lia.
    - (* nothing fits into a budget of 0 *)
      assert (HK : K = []).
      { destruct K as [|x K]; [reflexivity|]. cbn [table_size] in Hfit. pose proof (entry_size_pos x). lia. }
      rewrite HK. cbn [table_size]. replace (0 + entry_size f <=? t_max t) with false by lia. reflexivity. }
  split; [exact E|]. rewrite E. apply wf_table_of; [|apply add_entry_fits].
  unfold add_entry. destruct (entry_size f <=? t_max t); [|constructor].
  constructor; [exact Hf|]. apply kp_Forall. exact Hok.
Qed.

Lemma table_set_max_size_spec t n : wf_table t ->
  table_set_max_size t n = Some (table_of (evict_to n (t_entries t)) n) /\
  wf_table (table_of (evict_to n (t_entries t)) n).
Proof.
  intros (Hok & Hs & Hle). split.
  - unfold table_set_max_size. rewrite Hs, <- table_size_rev.
    destruct (evict_back_spec (rev (t_entries t)) 0 n (Forall_rev Hok)) as (r & Hrev & _ & Hc).
    rewrite (Hc eq_refl). rewrite rev_involutive, N.sub_0_r in Hrev.
    unfold evict_to, table_of. rewrite <- (table_size_rev r), Hrev. reflexivity.
  - apply wf_table_of; [apply kp_Forall; exact Hok|apply kp_fits].
Qed.

Lemma wf_table_new n : wf_table (table_new n).
Proof. apply (wf_table_of [] n); [constructor|apply N.le_0_l]. Qed.

Definition repr_eqb (a b : repr) : bool :=
  match a, b with
  | Indexed, Indexed | LiteralWithIndexing, LiteralWithIndexing
  | LiteralWithoutIndexing, LiteralWithoutIndexing | LiteralNeverIndexed, LiteralNeverIndexed
  | SizeUpdate, SizeUpdate => true
  | _, _ => false
  end.

Definition repr_of_octet (b : N) : repr :=
  if 128 <=? b then Indexed
  else if 64 <=? b then LiteralWithIndexing
  else if 32 <=? b then SizeUpdate
  else if 16 <=? b then LiteralNeverIndexed
  else LiteralWithoutIndexing.

Lemma repr_load_octet b : b < 256 -> repr_load b = inl (repr_of_octet b).
Proof.
  intros Hb.
  apply (byte_sweep (fun b => match repr_load b with inl r => repr_eqb r (repr_of_octet b) | inr _ => false end)) in Hb.
  - destruct (repr_load b) as [r|e]; [|discriminate].
    f_equal. destruct r, (repr_of_octet b); try discriminate; reflexivity.
  - vm_compute. reflexivity.
Qed.

(* "InvalidRepresentation" cannot arise from an octet *)
Corollary repr_load_total b e : b < 256 -> repr_load b <> inr e.
Proof. intros Hb. rewrite (repr_load_octet b Hb). discriminate. Qed.

Lemma decode_literal_inv hd t bs index :
  match decode_literal hd t bs index with
  | LOk f rest => entry_ok f /\ consumed bs rest
  | LErr _ _ q => q = QNone
  | LPanic => False
  end.
Proof.
  unfold decode_literal.
  destruct (decode_int (if index then 6 else 4) bs) as [idx r0|e] eqn:E0; [|reflexivity].
  apply decode_int_suffix in E0.
  destruct (idx =? 0).
  - destruct (try_decode_string hd r0) as [[nh name] r1|e] eqn:E1; [|reflexivity].
    destruct (try_decode_string hd r1) as [[vh value] r2|e] eqn:E2; [|reflexivity].
    destruct (header_new name value) as [f|e] eqn:E3; [|reflexivity].
    split; [apply (header_new_ok _ _ _ E3)|].
    apply try_decode_string_suffix in E1, E2. eauto using consumed_trans.
  - destruct (table_get_lookup t idx) as [_ Hnp].
    destruct (table_get t idx) as [e|e|]; [|reflexivity|exact (Hnp eq_refl)].
    destruct (try_decode_string hd r0) as [[vh value] r1|err] eqn:E1; [|reflexivity].
    destruct (into_entry (fst e) value) as [f|err] eqn:E3; [|reflexivity].
    split; [apply (into_entry_ok _ _ _ E3)|].
    apply try_decode_string_suffix in E1. eauto using consumed_trans.
Qed.

Lemma decode_literal_ref hd t bs index : octets bs ->
  match decode_literal hd t bs index with
  | LOk f rest =>
      ref_literal hd h2_int_limit (t_entries t) (if index then 6 else 4) bs = Some (f, rest)
  | LErr _ _ _ =>
      forall f rest, ref_literal hd h2_int_limit (t_entries t) (if index then 6 else 4) bs = Some (f, rest) ->
                     field_valid f = false
  | LPanic => True
  end.
Proof.
  intros Hb. unfold decode_literal, ref_literal, ref_lit_name.
  assert (Hp : 1 <= (if index then 6 else 4) <= 8) by (destruct index; lia).
  rewrite <- (decode_int_ref _ bs Hp Hb).
  destruct (decode_int (if index then 6 else 4) bs) as [idx r0|e] eqn:E0; cbn [rd_opt]; [|discriminate].
  apply decode_int_suffix in E0. apply consumed_octets in E0; [|exact Hb].
  destruct (idx =? 0).
  - rewrite <- (try_decode_string_ref hd r0 E0).
    destruct (try_decode_string hd r0) as [[nh name] r1|e] eqn:E1; cbn [str_opt]; [|discriminate].
    apply try_decode_string_suffix in E1. apply consumed_octets in E1; [|exact E0].
    rewrite <- (try_decode_string_ref hd r1 E1).
    destruct (try_decode_string hd r1) as [[vh value] r2|e]; cbn [str_opt]; [|discriminate].
    destruct (header_new name value) as [f|e] eqn:E3.
    + destruct (header_new_ok _ _ _ E3) as [-> _]. reflexivity.
    + intros f rest H; inversion H; subst. unfold field_valid. cbn [fst snd]. rewrite E3. reflexivity.
  - destruct (table_get_lookup t idx) as [Hl _]. rewrite <- Hl.
    destruct (table_get t idx) as [[n v0]|e|]; cbn [tres_opt fst]; [|discriminate|exact I].
    rewrite <- (try_decode_string_ref hd r0 E0).
    destruct (try_decode_string hd r0) as [[vh value] r1|err]; cbn [str_opt]; [|discriminate].
    destruct (into_entry n value) as [f|err] eqn:E3.
    + destruct (into_entry_ok _ _ _ E3) as [-> _]. reflexivity.
    + intros f rest H; inversion H; subst. unfold field_valid. cbn [fst snd].
      destruct (header_new n value) as [f|e] eqn:E4; [|reflexivity].
      rewrite (header_new_into_entry _ _ _ E4) in E3. discriminate.
Qed.

Definition lit_step (k : field -> decoder) (r : lres) : step_res :=
  match r with
  | LOk f rest => SField f (k f) rest
  | LErr e lft q => SErr e lft q
  | LPanic => SPanic
  end.

Definition step_inv (cr : bool) (d : decoder) (bs : list N) (r : step_res) : Prop :=
  match r with
  | SField _ d' rest =>
      consumed bs rest /\ d_last_max d' = d_last_max d /\ d_queued d' = d_queued d /\
      (wf d -> wf d' /\ tmax d' = tmax d)
  | SUpdate d' rest =>
      consumed bs rest /\ d_last_max d' = d_last_max d /\ d_queued d' = d_queued d /\ cr = true /\
      (wf d -> wf d' /\ tmax d' <= d_last_max d)
  | SErr e _ q => q = QMisplacedUpdate -> e = InvalidMaxDynamicSize
  | SPanic => ~ wf d
  end.

Lemma decode_step_inv hd cr d ty bs : step_inv cr d bs (decode_step hd cr d ty bs).
Proof.
  assert (Hlit : step_inv cr d bs (lit_step (fun _ => d) (decode_literal hd (d_table d) bs false))).
  { pose proof (decode_literal_inv hd (d_table d) bs false) as Hl.
    destruct (decode_literal hd (d_table d) bs false) as [f rest|e l q|]; cbn [lit_step step_inv].
    - destruct Hl as [_ Hc]. auto.
    - rewrite Hl. discriminate.
    - contradiction. }
  unfold decode_step. destruct (repr_load ty) as [[| | | |]|e]; [| |exact Hlit|exact Hlit| |discriminate].
  - destruct (decode_int 7 bs) as [idx r|e] eqn:E0; [|discriminate].
    destruct (table_get_lookup (d_table d) idx) as [_ Hnp].
    destruct (table_get (d_table d) idx); [|discriminate|contradiction (Hnp eq_refl)].
    cbn [step_inv]. apply decode_int_suffix in E0. auto.
  - pose proof (decode_literal_inv hd (d_table d) bs true) as Hl.
    destruct (decode_literal hd (d_table d) bs true) as [f rest|e l q|]; cbn [step_inv].
    + destruct Hl as [Hok Hc]. split; [exact Hc|]. split; [reflexivity|]. split; [reflexivity|].
      intros Hwf. destruct (table_insert_spec (d_table d) f Hwf Hok) as [E Hw].
      unfold wf, with_table. cbn [d_table]. split; [exact Hw|]. rewrite E. reflexivity.
    + rewrite Hl. discriminate.
    + contradiction.
  - destruct cr; cbn [negb step_inv]; [|reflexivity].
    destruct (decode_int 5 bs) as [n r|e] eqn:E0; [|discriminate].
    destruct (d_last_max d <? n) eqn:E1; [discriminate|].
    destruct (table_set_max_size (d_table d) n) as [t'|] eqn:E2; cbn [step_inv].
    + apply decode_int_suffix in E0. split; [exact E0|]. split; [reflexivity|]. split; [reflexivity|].
      split; [reflexivity|]. intros Hwf.
      destruct (table_set_max_size_spec (d_table d) n Hwf) as [E Hw]. rewrite E in E2.
      inversion E2; subst. unfold wf, with_table. cbn [d_table table_of t_max]. split; [exact Hw|lia].
    + intros Hwf. destruct (table_set_max_size_spec (d_table d) n Hwf) as [E _].
      rewrite E in E2. discriminate.
Qed.

Definition step_ref (hd : list N -> option (list N)) (cr : bool) (d : decoder) (bs : list N)
  (r : step_res) : Prop :=
  let rf := ref_field_step hd h2_int_limit (tmax d) (ent d) bs in
  let ru := ref_update_step h2_int_limit (d_last_max d) bs in
  match r with
  | SField f d' rest => rf = Some (f, ent d', rest) /\ ru = None
  | SUpdate d' rest =>
      rf = None /\ exists n, ru = Some (n, rest) /\ ent d' = evict_to n (ent d) /\ tmax d' = n
  | SErr _ _ _ =>
      (cr = true -> ru = None) /\ forall f dyn1 rest, rf = Some (f, dyn1, rest) -> field_valid f = false
  | SPanic => True
  end.

Lemma decode_step_ref hd cr d ty t : wf d -> octets (ty :: t) ->
  step_ref hd cr d (ty :: t) (decode_step hd cr d ty (ty :: t)).
Proof.
  intros Hwf Hb. pose proof Hb as Hty. apply octets_cons in Hty. destruct Hty as [Hty _].
  assert (Hlit : ty < 32 ->
            step_ref hd cr d (ty :: t) (lit_step (fun _ => d) (decode_literal hd (d_table d) (ty :: t) false))).
  { intros H32. pose proof (decode_literal_ref hd (d_table d) (ty :: t) false Hb) as Hr. cbv iota in Hr.
    unfold step_ref, ref_field_step, ref_update_step.
    replace (ty / 128 =? 1) with false by lia. replace (ty / 64 =? 1) with false by lia.
    replace ((ty / 16 =? 0) || (ty / 16 =? 1)) with true by lia.
    replace (ty / 32 =? 1) with false by lia.
    destruct (decode_literal hd (d_table d) (ty :: t) false) as [f rest|e l q|]; [|split; [reflexivity|]|exact I].
    - rewrite Hr. split; reflexivity.
    - intros f dyn1 rest H.
      destruct (ref_literal hd h2_int_limit (ent d) 4 (ty :: t)) as [[f' r']|]; [|discriminate].
      inversion H; subst. exact (Hr _ _ eq_refl). }
  unfold decode_step. rewrite (repr_load_octet ty Hty). unfold repr_of_octet.
  destruct (128 <=? ty) eqn:E128.
  { (* indexed *)
    unfold step_ref, ref_field_step, ref_update_step.
    replace (ty / 128 =? 1) with true by lia. replace (ty / 32 =? 1) with false by lia.
    rewrite <- (decode_int_ref 7 (ty :: t) ltac:(lia) Hb).
    destruct (decode_int 7 (ty :: t)) as [idx r|e]; cbn [rd_opt]; [|split; [reflexivity|discriminate]].
    destruct (table_get_lookup (d_table d) idx) as [Hl _]. rewrite <- Hl.
    destruct (table_get (d_table d) idx); cbn [tres_opt];
      [split; reflexivity|split; [reflexivity|discriminate]|exact I]. }
  destruct (64 <=? ty) eqn:E64.
  { (* literal with incremental indexing *)
    pose proof (decode_literal_ref hd (d_table d) (ty :: t) true Hb) as Hr. cbv iota in Hr.
    pose proof (decode_literal_inv hd (d_table d) (ty :: t) true) as Hi.
    unfold step_ref, ref_field_step, ref_update_step.
    replace (ty / 128 =? 1) with false by lia. replace (ty / 64 =? 1) with true by lia.
    replace (ty / 32 =? 1) with false by lia.
    destruct (decode_literal hd (d_table d) (ty :: t) true) as [f rest|e l q|]; [|split; [reflexivity|]|exact I].
    - rewrite Hr. destruct (table_insert_spec (d_table d) f Hwf (proj1 Hi)) as [E _].
      unfold with_table. cbn [d_table]. rewrite E. split; reflexivity.
    - intros f dyn1 rest H.
      destruct (ref_literal hd h2_int_limit (ent d) 6 (ty :: t)) as [[f' r']|]; [|discriminate].
      inversion H; subst. exact (Hr _ _ eq_refl). }
  destruct (32 <=? ty) eqn:E32; [|destruct (16 <=? ty); apply Hlit; lia].
  (* size update *)
  unfold step_ref, ref_field_step, ref_update_step.
  replace (ty / 128 =? 1) with false by lia. replace (ty / 64 =? 1) with false by lia.
  replace ((ty / 16 =? 0) || (ty / 16 =? 1)) with false by lia.
  replace (ty / 32 =? 1) with true by lia.
  destruct cr; cbn [negb]; [|split; discriminate].
  rewrite <- (decode_int_ref 5 (ty :: t) ltac:(lia) Hb).
  destruct (decode_int 5 (ty :: t)) as [n r|e]; cbn [rd_opt]; [|split; [reflexivity|discriminate]].
  destruct (d_last_max d <? n) eqn:E1.
  - replace (n <=? d_last_max d) with false by lia. split; [reflexivity|discriminate].
  - replace (n <=? d_last_max d) with true by lia.
    destruct (table_set_max_size_spec (d_table d) n Hwf) as [-> _].
    split; [reflexivity|]. exists n. unfold with_table. cbn [d_table table_of t_entries t_max]. auto.
Qed.

(* conversely *)
Lemma step_field_complete hd cr d ty t f dyn1 rest : wf d -> octets (ty :: t) ->
  ref_field_step hd h2_int_limit (tmax d) (ent d) (ty :: t) = Some (f, dyn1, rest) ->
  field_valid f = true ->
  exists d', decode_step hd cr d ty (ty :: t) = SField f d' rest /\ ent d' = dyn1.
Proof.
  intros Hwf Hb Hr Hv.
  pose proof (decode_step_ref hd cr d ty t Hwf Hb) as H. unfold step_ref in H. rewrite Hr in H.
  pose proof (decode_step_inv hd cr d ty (ty :: t)) as Hi.
  destruct (decode_step hd cr d ty (ty :: t)) as [f' d' rest'|d' rest'|e l q|].
  - destruct H as [H _]. inversion H; subst. eauto.
  - destruct H as [H _]. discriminate.
  - destruct H as [_ H]. rewrite (H _ _ _ eq_refl) in Hv. discriminate.
  - contradiction.
Qed.

Lemma step_update_complete hd d ty t n rest : wf d -> octets (ty :: t) ->
  ref_update_step h2_int_limit (d_last_max d) (ty :: t) = Some (n, rest) ->
  exists d', decode_step hd true d ty (ty :: t) = SUpdate d' rest /\
             ent d' = evict_to n (ent d) /\ tmax d' = n.
Proof.
  intros Hwf Hb Hr.
  pose proof (decode_step_ref hd true d ty t Hwf Hb) as H. unfold step_ref in H. rewrite Hr in H.
  pose proof (decode_step_inv hd true d ty (ty :: t)) as Hi.
  destruct (decode_step hd true d ty (ty :: t)) as [f' d' rest'|d' rest'|e l q|].
  - destruct H as [_ H]. discriminate.
  - destruct H as (_ & n' & H & He & Hm). inversion H; subst. eauto.
  - destruct H as [H _]. discriminate (H eq_refl).
  - contradiction.
Qed.

Lemma prepend_fields fs r : r_fields (prepend fs r) = fs ++ r_fields r.
Proof. reflexivity. Qed.

Lemma decode_step_shorter hd cr d ty bs :
  match decode_step hd cr d ty bs with
  | SField _ _ rest | SUpdate _ rest => (length rest < length bs)%nat
  | _ => True
  end.
Proof.
  pose proof (decode_step_inv hd cr d ty bs) as Hs.
  destruct (decode_step hd cr d ty bs); try exact I; apply consumed_shorter, Hs.
Qed.

Lemma loop_fuel hd : forall f1 f2 cr d bs, (length bs < f1)%nat -> (length bs < f2)%nat ->
  decode_loop hd f1 cr d bs = decode_loop hd f2 cr d bs.
Proof.
  induction f1 as [|f1 IH]; intros f2 cr d bs H1 H2; [lia|].
  destruct f2 as [|f2]; [lia|].
  destruct bs as [|ty t]; cbn [decode_loop]; [reflexivity|].
  pose proof (decode_step_shorter hd cr d ty (ty :: t)) as Hs.
  destruct (decode_step hd cr d ty (ty :: t)) as [f d' rest|d' rest|e l q|]; try reflexivity;
    cbn [length] in *; [f_equal|]; apply IH; lia.
Qed.

(* the loop with exactly the fuel that [decode] gives it *)
Definition decode_run (hd : list N -> option (list N)) (cr : bool) (d : decoder) (bs : list N)
  : dresult := decode_loop hd (S (length bs)) cr d bs.

Lemma decode_is_run hd d bs : decode hd d bs = decode_run hd true (take_queued d) bs.
Proof. reflexivity. Qed.

Lemma run_nil hd cr d : decode_run hd cr d [] = mk_dresult [] VOk d [] QNone.
Proof. reflexivity. Qed.

Lemma run_cons hd cr d ty t :
  decode_run hd cr d (ty :: t) =
  match decode_step hd cr d ty (ty :: t) with
  | SField f d' rest => prepend [f] (decode_run hd false d' rest)
  | SUpdate d' rest => decode_run hd cr d' rest
  | SErr e l q => mk_dresult [] (VErr e) d l q
  | SPanic => mk_dresult [] VPanic d (ty :: t) QNone
  end.
Proof.
  unfold decode_run at 1. cbn [length]. set (n := S (length t)). cbn [decode_loop]. subst n.
  pose proof (decode_step_shorter hd cr d ty (ty :: t)) as Hs.
  destruct (decode_step hd cr d ty (ty :: t)) as [f d' rest|d' rest|e l q|]; try reflexivity;
    cbn [length] in Hs; unfold decode_run;
    rewrite (loop_fuel hd (S (length t)) (S (length rest))) by lia; reflexivity.
Qed.

(* induction over a run, free of fuel and lengths *)
Lemma run_ind hd (P : bool -> decoder -> list N -> dresult -> Prop) :
  (forall cr d, P cr d [] (mk_dresult [] VOk d [] QNone)) ->
  (forall cr d ty t,
     match decode_step hd cr d ty (ty :: t) with
     | SField f d' rest =>
         P false d' rest (decode_run hd false d' rest) ->
         P cr d (ty :: t) (prepend [f] (decode_run hd false d' rest))
     | SUpdate d' rest =>
         P cr d' rest (decode_run hd cr d' rest) -> P cr d (ty :: t) (decode_run hd cr d' rest)
     | SErr e l q => P cr d (ty :: t) (mk_dresult [] (VErr e) d l q)
     | SPanic => P cr d (ty :: t) (mk_dresult [] VPanic d (ty :: t) QNone)
     end) ->
  forall cr d bs, P cr d bs (decode_run hd cr d bs).
Proof.
  intros Hnil Hcons cr d bs. remember (length bs) as n eqn:Hn. revert cr d bs Hn.
  induction n as [n IH] using lt_wf_ind. intros cr d [|ty t] Hn; [apply Hnil|].
  rewrite run_cons. specialize (Hcons cr d ty t).
  pose proof (decode_step_shorter hd cr d ty (ty :: t)) as Hs.
  destruct (decode_step hd cr d ty (ty :: t)) as [f d' rest|d' rest|e l q|]; try exact Hcons;
    apply Hcons; apply (IH (length rest)); (lia || reflexivity).
Qed.

Lemma run_inv hd cr d bs :
  let R := decode_run hd cr d bs in
  d_last_max (r_dec R) = d_last_max d /\ d_queued (r_dec R) = d_queued d /\
  (r_quirk R = QMisplacedUpdate -> r_verdict R = VErr InvalidMaxDynamicSize) /\
  (wf d -> wf (r_dec R) /\ r_verdict R <> VPanic /\
           (tmax (r_dec R) = tmax d \/ cr = true /\ tmax (r_dec R) <= d_last_max d)).
Proof.
  cbv zeta. pattern cr, d, bs, (decode_run hd cr d bs). apply run_ind; clear.
  - intros cr d. cbn [r_dec r_quirk r_verdict]. split; [reflexivity|]. split; [reflexivity|].
    split; [discriminate|]. intros Hwf. split; [exact Hwf|]. split; [discriminate|left; reflexivity].
  - intros cr d ty t. pose proof (decode_step_inv hd cr d ty (ty :: t)) as Hs.
    destruct (decode_step hd cr d ty (ty :: t)) as [f d' rest|d' rest|e l q|]; cbn [step_inv] in Hs.
    + intros (A & B & C & D). destruct Hs as (_ & Hl & Hq & Hw).
      cbn [prepend r_dec r_quirk r_verdict]. rewrite A, B.
      split; [exact Hl|]. split; [exact Hq|]. split; [exact C|]. intros Hwf.
      destruct (Hw Hwf) as [Hwf' Hm]. destruct (D Hwf') as (D1 & D2 & [D3|[D3 _]]); [|discriminate].
      split; [exact D1|]. split; [exact D2|]. left. congruence.
    + intros (A & B & C & D). destruct Hs as (_ & Hl & Hq & Hcr & Hw). rewrite A, B.
      split; [exact Hl|]. split; [exact Hq|]. split; [exact C|]. intros Hwf.
      destruct (Hw Hwf) as [Hwf' Hm]. destruct (D Hwf') as (D1 & D2 & D3).
      split; [exact D1|]. split; [exact D2|]. right. split; [exact Hcr|].
      destruct D3 as [D3|[_ D3]]; lia.
    + cbn [r_dec r_quirk r_verdict]. split; [reflexivity|]. split; [reflexivity|].
      split; [intros Hq; rewrite (Hs Hq); reflexivity|]. intros Hwf.
      split; [exact Hwf|]. split; [discriminate|left; reflexivity].
    + cbn [r_dec r_quirk r_verdict]. split; [reflexivity|]. split; [reflexivity|].
      split; [discriminate|]. intros Hwf. contradiction.
Qed.

(* take_queued only touches the ceiling *)
Lemma take_queued_table d : d_table (take_queued d) = d_table d.
Proof. unfold take_queued. destruct (d_queued d); reflexivity. Qed.

Lemma take_queued_wf d : wf d -> wf (take_queued d).
Proof. unfold wf. rewrite take_queued_table. auto. Qed.

Lemma take_queued_queued d : d_queued (take_queued d) = None.
Proof. unfold take_queued. destruct (d_queued d) eqn:E; [reflexivity|exact E]. Qed.

Lemma take_queued_none d : d_queued d = None -> take_queued d = d.
Proof. unfold take_queued. intros ->. reflexivity. Qed.

(* the queued update is consumed by the first call *)
Lemma decode_queued hd d bs : d_queued (r_dec (decode hd d bs)) = None.
Proof.
  rewrite decode_is_run. destruct (run_inv hd true (take_queued d) bs) as (_ & -> & _).
  apply take_queued_queued.
Qed.

Definition last_limit_of (d : decoder) : N := d_last_max (take_queued d).

Definition block_inv (d : decoder) (R : dresult) : Prop :=
  wf (r_dec R) /\ d_queued (r_dec R) = None /\ d_last_max (r_dec R) = last_limit_of d /\
  (tmax (r_dec R) = tmax d \/ tmax (r_dec R) <= last_limit_of d) /\ r_verdict R <> VPanic.

Lemma decode_inv hd d bs : wf d -> block_inv d (decode hd d bs).
Proof.
  intros Hwf. unfold block_inv, last_limit_of. pose proof (decode_queued hd d bs) as Hq.
  rewrite decode_is_run in *.
  destruct (run_inv hd true (take_queued d) bs) as (A & _ & _ & D).
  destruct (D (take_queued_wf d Hwf)) as (D1 & D2 & D3). rewrite take_queued_table in D3.
  split; [exact D1|]. split; [exact Hq|]. split; [exact A|]. split; [|exact D2].
  destruct D3 as [D3|[_ D3]]; auto.
Qed.

Lemma run_block_sound hd cr d bs : wf d -> octets bs ->
  let R := decode_run hd cr d bs in
  r_verdict R = VOk ->
  exists b1 b2 dyn1, bs = b1 ++ b2 /\
    updates_decode h2_int_limit (d_last_max d) (ent d) (tmax d) b1 dyn1 (tmax (r_dec R)) /\
    fields_decode hd h2_int_limit (tmax (r_dec R)) dyn1 b2 (r_fields R) (ent (r_dec R)) /\
    (cr = false -> b1 = [] /\ dyn1 = ent d /\ tmax (r_dec R) = tmax d).
Proof.
  cbv zeta. pattern cr, d, bs, (decode_run hd cr d bs). apply run_ind; clear.
  - intros cr d _ _ _. exists [], [], (ent d). split; [reflexivity|]. split; [constructor|]. split; [constructor|auto].
  - intros cr d ty t. pose proof (decode_step_inv hd cr d ty (ty :: t)) as Hs.
    destruct (decode_step hd cr d ty (ty :: t)) as [f d' rest|d' rest|e l q|] eqn:E.
    + (* a header field: no size update from here on *)
      intros IH Hwf Hb Hv. destruct Hs as (Hc & _ & _ & Hw). destruct (Hw Hwf) as [Hwf' Hm].
      pose proof (decode_step_ref hd cr d ty t Hwf Hb) as Hr. rewrite E in Hr. destruct Hr as [Hr _].
      apply ref_field_step_sound in Hr. destruct Hr as (enc & Eb & Hf).
      destruct (IH Hwf' (consumed_octets _ _ Hc Hb) Hv) as (b1 & b2 & dyn1 & E' & _ & Hfd & Hno).
      destruct (Hno eq_refl) as (-> & -> & Hm'). cbn [prepend r_fields r_dec app] in *.
      subst b2. rewrite Hm', Hm in *. exists [], (ty :: t), (ent d).
      split; [reflexivity|]. split; [constructor|]. split; [|auto].
      rewrite Eb. eapply fd_cons; eassumption.
    + intros IH Hwf Hb Hv. destruct Hs as (Hc & Hl & _ & Hcr & Hw). destruct (Hw Hwf) as [Hwf' _].
      pose proof (decode_step_ref hd cr d ty t Hwf Hb) as Hr. rewrite E in Hr.
      destruct Hr as (_ & n & Hr & He & Hm).
      apply ref_update_step_sound in Hr. destruct Hr as (enc & Eb & Hu).
      destruct (IH Hwf' (consumed_octets _ _ Hc Hb) Hv) as (b1 & b2 & dyn1 & -> & Hud & Hfd & _).
      exists (enc ++ b1), b2, dyn1. split; [rewrite Eb; apply app_assoc|].
      split; [|split; [exact Hfd|intros ->; discriminate]].
      rewrite Hl, He, Hm in Hud. eapply ud_cons; eassumption.
    + discriminate.
    + discriminate.
Qed.

Definition abs (d : decoder) : rstate := mk_rstate (ent d) (tmax d) (d_last_max d).

(* no validation hypothesis: validation only rejects *)
Theorem hpack_decode_sound hd d bs :
  wf d -> octets bs ->
  r_verdict (decode hd d bs) = VOk ->
  block_decodes hd h2_int_limit (abs (take_queued d)) bs
                (r_fields (decode hd d bs)) (abs (r_dec (decode hd d bs))).
Proof.
  intros Hwf Hb Hv. rewrite decode_is_run in *.
  destruct (run_block_sound hd true _ bs (take_queued_wf d Hwf) Hb Hv) as (b1 & b2 & dyn1 & E & Hu & Hf & _).
  destruct (run_inv hd true (take_queued d) bs) as (Hl & _).
  exists b1, b2, dyn1, (tmax (r_dec (decode_run hd true (take_queued d) bs))).
  unfold abs. cbn [r_dyn r_max r_limit]. auto.
Qed.

(* the integer limit of the statement is the strongest one: more octets only accept more *)
Lemma string_lit_mono hd L L' enc s : (L <= L')%nat -> string_lit hd L enc s -> string_lit hd L' enc s.
Proof.
  intros Hle H. inversion H; subst.
  - apply str_raw. eapply int_repr_L_mono; eassumption.
  - eapply str_huff; [eapply int_repr_L_mono; eassumption|assumption].
Qed.

Lemma lit_name_mono hd L L' dyn p hi enc n : (L <= L')%nat ->
  lit_name hd L dyn p hi enc n -> lit_name hd L' dyn p hi enc n.
Proof.
  intros Hle H. inversion H; subst.
  - eapply ln_indexed; [eapply int_repr_L_mono; eassumption|assumption|eassumption].
  - apply ln_new; [eapply int_repr_L_mono; eassumption|eapply string_lit_mono; eassumption].
Qed.

Lemma field_repr_mono hd L L' max dyn enc f dyn1 : (L <= L')%nat ->
  field_repr hd L max dyn enc f dyn1 -> field_repr hd L' max dyn enc f dyn1.
Proof.
  intros Hle H. inversion H; subst.
  - eapply fr_indexed; [eapply int_repr_L_mono; eassumption|assumption].
  - apply fr_incremental; [eapply lit_name_mono|eapply string_lit_mono]; eassumption.
  - apply fr_without; [eapply lit_name_mono|eapply string_lit_mono]; eassumption.
  - apply fr_never; [eapply lit_name_mono|eapply string_lit_mono]; eassumption.
Qed.

Lemma block_decodes_mono hd L L' rs bs fs rs' : (L <= L')%nat ->
  block_decodes hd L rs bs fs rs' -> block_decodes hd L' rs bs fs rs'.
Proof.
  intros Hle (b1 & b2 & dyn1 & max1 & -> & Hu & Hf & Hm & Hl).
  exists b1, b2, dyn1, max1. split; [reflexivity|]. split; [|split; [|auto]].
  - clear - Hle Hu. induction Hu as [|dyn max enc n bs dyn' max' Hs _ IH]; [constructor|].
    eapply ud_cons; [|exact IH]. inversion Hs; subst. constructor; [eapply int_repr_L_mono; eassumption|assumption].
  - clear - Hle Hf. induction Hf as [|dyn enc f dyn1' bs fs dyn' Hr _ IH]; [constructor|].
    eapply fd_cons; [eapply field_repr_mono; eassumption|exact IH].
Qed.

Corollary hpack_decode_sound_any_limit hd d bs L :
  wf d -> octets bs -> (h2_int_limit <= L)%nat ->
  r_verdict (decode hd d bs) = VOk ->
  block_decodes hd L (abs (take_queued d)) bs
                (r_fields (decode hd d bs)) (abs (r_dec (decode hd d bs))).
Proof.
  intros Hwf Hb HL Hv. eapply block_decodes_mono; [exact HL|]. apply hpack_decode_sound; assumption.
Qed.

Lemma run_fields_complete hd max dyn bs fs dyn' :
  fields_decode hd h2_int_limit max dyn bs fs dyn' ->
  forall cr d, wf d -> octets bs -> tmax d = max -> ent d = dyn -> forallb field_valid fs = true ->
  let R := decode_run hd cr d bs in
  r_verdict R = VOk /\ r_fields R = fs /\ ent (r_dec R) = dyn' /\ tmax (r_dec R) = max.
Proof.
  induction 1 as [dyn|dyn enc f dyn1 bs fs dyn' Hf _ IH]; intros cr d Hwf Hb Hm He Hv; cbv zeta.
  - rewrite run_nil. cbn [r_verdict r_fields r_dec]. auto.
  - destruct (ref_field_step_complete _ _ _ _ _ _ _ bs Hf) as [Hr (ty & t & -> & _)]. cbn [app] in *.
    cbn [forallb] in Hv. apply andb_true_iff in Hv. destruct Hv as [Hvf Hvs].
    rewrite <- Hm, <- He in Hr.
    destruct (step_field_complete hd cr d ty _ f dyn1 bs Hwf Hb Hr Hvf) as (d' & Es & He').
    pose proof (decode_step_inv hd cr d ty (ty :: t ++ bs)) as Hs. rewrite Es in Hs.
    destruct Hs as (Hc & _ & _ & Hw). destruct (Hw Hwf) as [Hwf' Hm'].
    rewrite run_cons, Es. cbn [prepend r_verdict r_fields r_dec].
    destruct (IH false d' Hwf' (consumed_octets _ _ Hc Hb) ltac:(congruence) He' Hvs) as (A & B & C & D).
    rewrite B. auto.
Qed.

Lemma run_block_complete hd limit dyn max b1 dyn1 max1 :
  updates_decode h2_int_limit limit dyn max b1 dyn1 max1 ->
  forall b2 fs dyn' d, fields_decode hd h2_int_limit max1 dyn1 b2 fs dyn' ->
  wf d -> octets (b1 ++ b2) -> d_last_max d = limit -> ent d = dyn -> tmax d = max ->
  forallb field_valid fs = true ->
  let R := decode_run hd true d (b1 ++ b2) in
  r_verdict R = VOk /\ r_fields R = fs /\ ent (r_dec R) = dyn' /\ tmax (r_dec R) = max1.
Proof.
  induction 1 as [dyn max|dyn max enc n bs dyn1 max1 Hu _ IH];
    intros b2 fs dyn' d Hfd Hwf Hb Hl He Hm Hv.
  - exact (run_fields_complete hd _ _ _ _ _ Hfd true d Hwf Hb Hm He Hv).
  - destruct (ref_update_step_complete _ limit enc n (bs ++ b2) Hu) as [Hr Hne].
    rewrite <- app_assoc in *. destruct enc as [|ty t]; [cbn [length] in Hne; lia|]. cbn [app] in *.
    rewrite <- Hl in Hr.
    destruct (step_update_complete hd d ty _ n _ Hwf Hb Hr) as (d' & Es & He' & Hm').
    pose proof (decode_step_inv hd true d ty (ty :: t ++ bs ++ b2)) as Hs. rewrite Es in Hs.
    destruct Hs as (Hc & Hl' & _ & _ & Hw). destruct (Hw Hwf) as [Hwf' _].
    cbv zeta. rewrite run_cons, Es.
    apply (IH b2 fs dyn' d' Hfd Hwf' (consumed_octets _ _ Hc Hb)); congruence.
Qed.

Theorem hpack_decode_complete_modulo_validation hd d bs fs rs' :
  wf d -> octets bs ->
  block_decodes hd h2_int_limit (abs (take_queued d)) bs fs rs' ->
  forallb field_valid fs = true ->
  r_verdict (decode hd d bs) = VOk /\
  r_fields (decode hd d bs) = fs /\
  abs (r_dec (decode hd d bs)) = rs'.
Proof.
  intros Hwf Hb (b1 & b2 & dyn1 & max1 & -> & Hu & Hf & Hm & Hlim) Hv. rewrite decode_is_run.
  destruct (run_block_complete hd _ _ _ _ _ _ Hu b2 fs _ (take_queued d) Hf (take_queued_wf d Hwf) Hb
              eq_refl eq_refl eq_refl Hv) as (A & B & C & D).
  destruct (run_inv hd true (take_queued d) (b1 ++ b2)) as (Hl & _).
  split; [exact A|]. split; [exact B|].
  destruct rs' as [dy m l]. unfold abs in *. cbn [r_dyn r_max r_limit] in *. congruence.
Qed.

(* Validation is the only reason for the model to reject what the RFC accepts: a block rejected by
   the model but accepted by the reference has a header that fails http-crate validation. *)
Corollary hpack_reject_only_for_validation hd d bs fs rs' :
  wf d -> octets bs ->
  block_decodes hd h2_int_limit (abs (take_queued d)) bs fs rs' ->
  r_verdict (decode hd d bs) <> VOk ->
  forallb field_valid fs = false.
Proof.
  intros Hwf Hb Hbd Hv. destruct (forallb field_valid fs) eqn:E; [|reflexivity].
  destruct (hpack_decode_complete_modulo_validation hd d bs fs rs' Hwf Hb Hbd E) as [A _].
  contradiction.
Qed.

Definition resumable (R : dresult) : bool :=
  match r_verdict R with
  | VOk => true
  | VErr e => is_need_more e
  | _ => false
  end.

Lemma chunks_from_cons hd d carry f g more :
  decode_chunks_from hd d carry (f :: g :: more) =
  let R := decode hd d (carry ++ f) in
  if resumable R then prepend (r_fields R) (decode_chunks_from hd (r_dec R) (r_left R) (g :: more))
  else R.
Proof.
  cbn [decode_chunks_from]. unfold resumable.
  destruct (r_verdict (decode hd d (carry ++ f))) as [|[| | | | | | | | |k]| |]; reflexivity.
Qed.

Lemma decode_chunks_from_inv hd : forall frags d carry, wf d ->
  block_inv d (decode_chunks_from hd d carry frags).
Proof.
  induction frags as [|f more IH]; intros d carry Hwf.
  - apply decode_inv. exact Hwf.
  - pose proof (decode_inv hd d (carry ++ f) Hwf) as H1.
    destruct more as [|g more']; [exact H1|].
    rewrite chunks_from_cons. cbv zeta. set (R1 := decode hd d (carry ++ f)) in *.
    assert (K : block_inv d (prepend (r_fields R1)
                               (decode_chunks_from hd (r_dec R1) (r_left R1) (g :: more')))).
    { destruct H1 as (A & B & C & D & _).
      destruct (IH (r_dec R1) (r_left R1) A) as (A' & B' & C' & D' & F').
      unfold last_limit_of in C', D' at 1. rewrite (take_queued_none _ B), C in C', D'.
      split; [exact A'|]. split; [exact B'|]. split; [exact C'|]. split; [|exact F'].
      cbn [prepend r_dec]. destruct D as [D|D], D' as [D'|D']; try (right; lia). left. congruence. }
    destruct (resumable R1); [exact K|exact H1].
Qed.

(* histories: settings acknowledgements (queue_size_update) and header blocks in fragments *)
Inductive event := EQueue (n : N) | EBlock (frags : list (list N)).

Definition apply_event (hd : list N -> option (list N)) (d : decoder) (e : event) : decoder :=
  match e with
  | EQueue n => queue_size_update d n
  | EBlock frags => r_dec (decode_chunks hd d frags)
  end.

Definition run_events (hd : list N -> option (list N)) (d : decoder) (evs : list event) : decoder :=
  fold_left (apply_event hd) evs d.

(* the largest table size ever advertised *)
Fixpoint max_limit (acc : N) (evs : list event) : N :=
  match evs with
  | [] => acc
  | EQueue n :: r => max_limit (N.max acc n) r
  | EBlock _ :: r => max_limit acc r
  end.

Definition hist_inv (d : decoder) (hw : N) : Prop :=
  wf d /\ tmax d <= hw /\ d_last_max d <= hw /\
  match d_queued d with Some q => q <= hw | None => True end.

Lemma run_events_inv hd : forall evs d hw, hist_inv d hw -> hist_inv (run_events hd d evs) (max_limit hw evs).
Proof.
  induction evs as [|e evs IH]; intros d hw H; [exact H|].
  cbn [run_events fold_left]. change (fold_left (apply_event hd) evs ?x) with (run_events hd x evs).
  destruct H as (Hwf & Hm & Hl & Hq).
  destruct e as [n|frags]; cbn [max_limit apply_event]; apply IH.
  - unfold hist_inv, queue_size_update, wf. cbn [d_table d_last_max d_queued].
    split; [exact Hwf|]. split; [lia|]. split; [lia|].
    destruct (d_queued d); lia.
  - destruct (decode_chunks_from_inv hd frags d [] Hwf) as (A & B & C & D & _).
    fold (decode_chunks hd d frags) in A, B, C, D.
    assert (Hll : last_limit_of d <= hw).
    { unfold last_limit_of, take_queued. destruct (d_queued d); cbn [d_last_max]; lia. }
    unfold hist_inv. rewrite B. split; [exact A|]. split; [|split; [lia|exact I]].
    destruct D as [D|D]; lia.
Qed.

Lemma hist_inv_new size : hist_inv (decoder_new size) size.
Proof.
  unfold hist_inv, wf, decoder_new. cbn [d_table d_last_max d_queued table_new t_max].
  split; [apply wf_table_new|]. split; [lia|]. split; [lia|exact I].
Qed.

(* Feeding a block in fragments.  Extending the input by [x] does not change what was read from a
   complete prefix: an accepted result only has [x] appended to what is left, and so has a refusal
   that is not for want of input; NeedMore has consumed nothing and promises nothing. *)
Inductive stable_rd {A} (x : list N) : rd A -> rd A -> Prop :=
| sr_ok v rest : stable_rd x (ROk v rest) (ROk v (rest ++ x))
| sr_more e r' : is_need_more e = true -> stable_rd x (RErr e) r'
| sr_hard e : is_need_more e = false -> stable_rd x (RErr e) (RErr e).

Inductive stable_l (bs x : list N) : lres -> lres -> Prop :=
| sl_ok f rest : stable_l bs x (LOk f rest) (LOk f (rest ++ x))
| sl_more e r' : is_need_more e = true -> stable_l bs x (LErr e bs QNone) r'
| sl_hard e l q : is_need_more e = false -> stable_l bs x (LErr e l q) (LErr e (l ++ x) q)
| sl_panic : stable_l bs x LPanic LPanic.

Inductive stable_s (bs x : list N) : step_res -> step_res -> Prop :=
| ss_field f d rest : stable_s bs x (SField f d rest) (SField f d (rest ++ x))
| ss_update d rest : stable_s bs x (SUpdate d rest) (SUpdate d (rest ++ x))
| ss_more e r' : is_need_more e = true -> stable_s bs x (SErr e bs QNone) r'
| ss_hard e l q : is_need_more e = false -> stable_s bs x (SErr e l q) (SErr e (l ++ x) q)
| ss_panic : stable_s bs x SPanic SPanic.

Lemma sl_err bs x e : stable_l bs x (LErr e bs QNone) (LErr e (bs ++ x) QNone).
Proof. destruct (is_need_more e) eqn:E; [apply sl_more|apply sl_hard]; exact E. Qed.

Lemma ss_err bs x e : stable_s bs x (SErr e bs QNone) (SErr e (bs ++ x) QNone).
Proof. destruct (is_need_more e) eqn:E; [apply ss_more|apply ss_hard]; exact E. Qed.

Lemma decode_int_loop_stable : forall bs k s r x,
  stable_rd x (decode_int_loop k s r bs) (decode_int_loop k s r (bs ++ x)).
Proof.
  induction bs as [|b t IH]; intros k s r x; cbn [decode_int_loop app].
  - apply sr_more. reflexivity.
  - destruct (N.land b VARINT_FLAG =? 0); [apply sr_ok|].
    destruct (k + 1 =? MAX_BYTES); [apply sr_hard; reflexivity|apply IH].
Qed.

Lemma decode_int_stable p bs x : stable_rd x (decode_int p bs) (decode_int p (bs ++ x)).
Proof.
  unfold decode_int. destruct ((p <? 1) || (8 <? p)); [apply sr_hard; reflexivity|].
  destruct bs as [|b t]; cbn [app]; [apply sr_more; reflexivity|].
  destruct (N.land b (int_mask p) <? int_mask p); [apply sr_ok|apply decode_int_loop_stable].
Qed.

Lemma split_at_stable n l a b x : split_at n l = Some (a, b) -> split_at n (l ++ x) = Some (a, b ++ x).
Proof.
  intros H. apply split_at_sound in H. destruct H as [-> <-].
  rewrite <- app_assoc. apply split_at_app.
Qed.

Lemma try_decode_string_stable hd bs x :
  stable_rd x (try_decode_string hd bs) (try_decode_string hd (bs ++ x)).
Proof.
  unfold try_decode_string. destruct bs as [|b t]; [apply sr_more; reflexivity|]. cbn [app].
  change (b :: t ++ x) with ((b :: t) ++ x).
  destruct (decode_int_stable 7 (b :: t) x) as [len r1|e r' He|e He];
    [|apply sr_more; exact He|apply sr_hard; exact He].
  rewrite (split_n_at r1), (split_n_at (r1 ++ x)).
  destruct (split_at len r1) as [[raw r2]|] eqn:E2; [|apply sr_more; reflexivity].
  rewrite (split_at_stable _ _ _ _ x E2).
  destruct (N.land b 128 =? 128); [|apply sr_ok].
  destruct (hd raw); [apply sr_ok|apply sr_hard; reflexivity].
Qed.

Lemma decode_literal_stable hd t bs index x :
  stable_l bs x (decode_literal hd t bs index) (decode_literal hd t (bs ++ x) index).
Proof.
  unfold decode_literal.
  destruct (decode_int_stable (if index then 6 else 4) bs x) as [idx r0|e r' He|e He];
    [|apply sl_more; exact He|apply sl_hard; exact He].
  destruct (idx =? 0).
  - destruct (try_decode_string_stable hd r0 x) as [[nh name] r1|e r' He|e He];
      [|apply sl_more; exact He|apply sl_hard; exact He].
    destruct (try_decode_string_stable hd r1 x) as [[vh value] r2|e r' He|e He];
      [|apply sl_more; exact He|apply sl_hard; exact He].
    destruct (header_new name value) as [f|e] eqn:E3; [apply sl_ok|].
    replace (if vh then if nh then bs ++ x else r1 ++ x else r2 ++ x)
      with ((if vh then if nh then bs else r1 else r2) ++ x) by (destruct vh, nh; reflexivity).
    apply sl_hard. exact (header_new_err_hard _ _ _ E3).
  - destruct (table_get t idx) as [e|e|]; [|apply sl_err|apply sl_panic].
    destruct (try_decode_string_stable hd r0 x) as [[vh value] r1|err r' He|err He];
      [|apply sl_more; exact He|apply sl_hard; exact He].
    destruct (into_entry (fst e) value) as [f|err] eqn:E3; [apply sl_ok|].
    replace (if vh then bs ++ x else r1 ++ x) with ((if vh then bs else r1) ++ x)
      by (destruct vh; reflexivity).
    apply sl_hard. exact (into_entry_err_hard _ _ _ E3).
Qed.

Lemma decode_step_stable hd cr d ty bs x :
  stable_s bs x (decode_step hd cr d ty bs) (decode_step hd cr d ty (bs ++ x)).
Proof.
  assert (Hlit : forall index k,
            stable_s bs x (lit_step k (decode_literal hd (d_table d) bs index))
                          (lit_step k (decode_literal hd (d_table d) (bs ++ x) index))).
  { intros index k.
    destruct (decode_literal_stable hd (d_table d) bs index x) as [f rest|e r' He|e l q He|];
      [apply ss_field|apply ss_more; exact He|apply ss_hard; exact He|apply ss_panic]. }
  unfold decode_step.
  destruct (repr_load ty) as [[| | | |]|e];
    [|exact (Hlit true _)|exact (Hlit false (fun _ => d))|exact (Hlit false (fun _ => d))| |apply ss_err].
  - destruct (decode_int_stable 7 bs x) as [idx r|e r' He|e He];
      [|apply ss_more; exact He|apply ss_hard; exact He].
    destruct (table_get (d_table d) idx); [apply ss_field|apply ss_err|apply ss_panic].
  - destruct (negb cr); [apply ss_hard; reflexivity|].
    destruct (decode_int_stable 5 bs x) as [n r|e r' He|e He];
      [|apply ss_more; exact He|apply ss_hard; exact He].
    destruct (d_last_max d <? n); [apply ss_hard; reflexivity|].
    destruct (table_set_max_size (d_table d) n); [apply ss_update|apply ss_panic].
Qed.

Definition cr_after (cr : bool) (fs : list field) : bool :=
  match fs with [] => cr | _ :: _ => false end.

Definition set_left (R : dresult) (l : list N) : dresult :=
  mk_dresult (r_fields R) (r_verdict R) (r_dec R) l (r_quirk R).

Lemma prepend_nil r : prepend [] r = r.
Proof. destruct r; reflexivity. Qed.

Lemma prepend_prepend a b r : prepend a (prepend b r) = prepend (a ++ b) r.
Proof. unfold prepend. cbn [r_fields r_verdict r_dec r_left r_quirk]. rewrite app_assoc. reflexivity. Qed.

Lemma run_app hd x : forall cr d b1,
  decode_run hd cr d (b1 ++ x) =
  let R1 := decode_run hd cr d b1 in
  if resumable R1
  then prepend (r_fields R1) (decode_run hd (cr_after cr (r_fields R1)) (r_dec R1) (r_left R1 ++ x))
  else set_left R1 (r_left R1 ++ x).
Proof.
  intros cr d b1. cbv zeta. pattern cr, d, b1, (decode_run hd cr d b1). apply run_ind; clear cr d b1.
  - intros cr d. cbn [resumable r_verdict r_fields r_dec r_left cr_after app].
    rewrite prepend_nil. reflexivity.
  - intros cr d ty t. pose proof (decode_step_stable hd cr d ty (ty :: t) x) as Hst.
    remember (decode_step hd cr d ty ((ty :: t) ++ x)) as s' eqn:Es' in Hst.
    destruct Hst as [f d' rest|d' rest|e r' He|e l q He|]; cbn [app].
    3: { (* nothing consumed: the extended input is decoded from the start *)
      unfold resumable. cbn [r_verdict r_fields r_dec r_left cr_after]. rewrite He, prepend_nil. reflexivity. }
    all: rewrite run_cons; change (ty :: t ++ x) with ((ty :: t) ++ x); rewrite <- Es'.
    + intros ->. set (R1 := decode_run hd false d' rest).
      change (resumable (prepend [f] R1)) with (resumable R1). destruct (resumable R1); [|reflexivity].
      rewrite prepend_prepend. cbn [prepend r_fields r_dec r_left app cr_after].
      destruct (r_fields R1); reflexivity.
    + intros ->. reflexivity.
    + unfold resumable. cbn [r_verdict]. rewrite He. reflexivity.
    + reflexivity.
Qed.

Lemma step_cr hd d ty bs :
  decode_step hd true d ty bs = decode_step hd false d ty bs \/
  decode_step hd false d ty bs = SErr InvalidMaxDynamicSize bs QMisplacedUpdate.
Proof. unfold decode_step. destruct (repr_load ty) as [[| | | |]|e]; auto. Qed.

Lemma run_cr hd d bs :
  r_quirk (decode_run hd false d bs) <> QMisplacedUpdate ->
  decode_run hd true d bs = decode_run hd false d bs.
Proof.
  destruct bs as [|ty t]; [reflexivity|]. rewrite !run_cons.
  destruct (step_cr hd d ty (ty :: t)) as [-> | ->].
  - pose proof (decode_step_inv hd false d ty (ty :: t)) as Hs.
    destruct (decode_step hd false d ty (ty :: t)); try reflexivity.
    destruct Hs as (_ & _ & _ & Hs & _). discriminate.
  - intros H. contradiction H. reflexivity.
Qed.

Definition same_result (A B : dresult) : Prop :=
  r_fields A = r_fields B /\ r_verdict A = r_verdict B /\ r_dec A = r_dec B.

Lemma same_result_prepend fs A B : same_result A B -> same_result (prepend fs A) (prepend fs B).
Proof. unfold same_result, prepend. cbn [r_fields r_verdict r_dec]. intros (-> & -> & ->). auto. Qed.

Lemma chunks_from_whole hd : forall frags d carry,
  r_quirk (decode hd d (carry ++ concat frags)) = QNone ->
  same_result (decode_chunks_from hd d carry frags) (decode hd d (carry ++ concat frags)).
Proof.
  induction frags as [|f more IH]; intros d carry Hq; [|destruct more as [|g more']].
  1, 2: cbn [decode_chunks_from concat]; rewrite app_nil_r; repeat split.
  - rewrite chunks_from_cons. cbv zeta.
    set (C := concat (g :: more')). change (concat (f :: g :: more')) with (f ++ C) in *.
    rewrite app_assoc, (decode_is_run hd d ((carry ++ f) ++ C)) in *.
    rewrite (run_app hd C true (take_queued d) (carry ++ f)) in *. cbv zeta in *.
    rewrite <- decode_is_run in *. set (R1 := decode hd d (carry ++ f)) in *.
    destruct (resumable R1).
    + (* the caller continues; the queued update was taken by the first call *)
      cbn [prepend r_quirk] in Hq. set (T := r_left R1 ++ C) in *. apply same_result_prepend.
      assert (Hdec : decode hd (r_dec R1) T = decode_run hd (cr_after true (r_fields R1)) (r_dec R1) T).
      { rewrite decode_is_run, (take_queued_none (r_dec R1) (decode_queued hd d (carry ++ f))).
        destruct (cr_after true (r_fields R1)); [reflexivity|]. apply run_cr. rewrite Hq. discriminate. }
      rewrite <- Hdec. apply IH. fold C T. rewrite Hdec. exact Hq.
    + (* a hard error in a fragment that is not the last: nothing more is fed *)
      repeat split.
Qed.

(* A header block delivered in any number of fragments, cut anywhere, decoded the
   way framed_read.rs does it (keep what `take` left in the BytesMut, append the next payload,
   call decode again after Ok or NeedMore; NeedMore on the last fragment is final), yields the
   same headers, the same verdict (error class) and the same decoder state (dynamic table,
   ceiling) as decoding the whole block at once -- EXCEPT for the known finding KF-C11-1: the
   whole-block run meets a size update after a header field ([size_update_after_field], ghost
   component [r_quirk] = QMisplacedUpdate; visible verdict InvalidMaxDynamicSize).  There the
   fragmented run can really differ (chunking_differs_misplaced_update below): `can_resize` is a local of
   Decoder::decode and is true again on every call. *)
Definition size_update_after_field (hd : list N -> option (list N)) (d : decoder) (bs : list N)
  : Prop := r_quirk (decode hd d bs) = QMisplacedUpdate.

Theorem hpack_chunking_except_known hd d frags :
  frags <> [] ->
  ~ size_update_after_field hd d (concat frags) ->
  same_result (decode_chunks hd d frags) (decode hd d (concat frags)).
Proof.
  intros _ Hq. apply (chunks_from_whole hd frags d []). cbn [app].
  unfold size_update_after_field in Hq. destruct (r_quirk (decode hd d (concat frags))); [reflexivity|].
  contradiction Hq. reflexivity.
Qed.

(* the exception in terms of the visible verdict *)
Lemma run_quirk_verdict hd : forall n bs, (length bs <= n)%nat -> forall cr d,
  r_quirk (decode_run hd cr d bs) = QMisplacedUpdate ->
  r_verdict (decode_run hd cr d bs) = VErr InvalidMaxDynamicSize.
Proof. intros n bs _ cr d. apply run_inv. Qed.

(* In particular: every block that decodes successfully as a whole decodes identically in every
   fragmentation, and so does every block that fails with any error class other than
   InvalidMaxDynamicSize. *)
Corollary hpack_chunking_by_verdict hd d frags :
  frags <> [] ->
  r_verdict (decode hd d (concat frags)) <> VErr InvalidMaxDynamicSize ->
  same_result (decode_chunks hd d frags) (decode hd d (concat frags)).
Proof.
  intros Hne H1. apply hpack_chunking_except_known; [exact Hne|].
  unfold size_update_after_field. intros Hq. apply H1.
  rewrite decode_is_run in *. apply run_inv. exact Hq.
Qed.

Corollary hpack_chunking_ok hd d frags :
  frags <> [] ->
  r_verdict (decode hd d (concat frags)) = VOk ->
  same_result (decode_chunks hd d frags) (decode hd d (concat frags)).
Proof.
  intros Hne Hv. apply hpack_chunking_by_verdict; [exact Hne|]; rewrite Hv; discriminate.
Qed.

(* RFC 7541 C.2.1 *)
Example hpack_decode_sound_example hd :
  let bs := [64; 10; 99; 117; 115; 116; 111; 109; 45; 107; 101; 121;
             13; 99; 117; 115; 116; 111; 109; 45; 104; 101; 97; 100; 101; 114] in
  let d := decoder_new 4096 in
  wf d /\ octets bs /\ r_verdict (decode hd d bs) = VOk /\
  r_fields (decode hd d bs) = [(bstr "custom-key", bstr "custom-header")] /\
  t_size (d_table (r_dec (decode hd d bs))) = 55.
Proof.
  cbv zeta. split; [apply wf_table_new|]. split; [apply bytes_ok_octets; vm_compute; reflexivity|].
  vm_compute. auto.
Qed.

Example hpack_decode_complete_example hd :
  (* RFC 7541 C.2.4: indexed header field :method GET *)
  let d := decoder_new 4096 in
  wf d /\ octets [130] /\
  block_decodes hd h2_int_limit (abs (take_queued d)) [130] [(bstr ":method", bstr "GET")] (abs d) /\
  forallb field_valid [(bstr ":method", bstr "GET")] = true.
Proof.
  cbv zeta. split; [apply wf_table_new|]. split; [apply bytes_ok_octets; vm_compute; reflexivity|].
  split; [|vm_compute; reflexivity].
  apply ref_decode_block_spec. vm_compute. reflexivity.
Qed.

Example hpack_chunking_example hd :
  (* RFC 7541 C.2.1 cut in three places, one of them inside the name string *)
  let frags := [[64; 10; 99; 117]; [115; 116; 111; 109; 45; 107; 101; 121; 13; 99]; [];
                [117; 115; 116; 111; 109; 45; 104; 101; 97; 100; 101; 114]] in
  frags <> [] /\ ~ size_update_after_field hd (decoder_new 4096) (concat frags) /\
  r_fields (decode_chunks hd (decoder_new 4096) frags) = [(bstr "custom-key", bstr "custom-header")].
Proof.
  cbv zeta. split; [discriminate|].
  split; [unfold size_update_after_field; vm_compute; discriminate|vm_compute; reflexivity].
Qed.

(* RFC 7541 Appendix C.3: requests without Huffman coding, one decoder *)
Definition c3_1 : list N := [130; 134; 132; 65; 15; 119; 119; 119; 46; 101; 120; 97; 109; 112; 108; 101; 46; 99; 111; 109].
Definition c3_2 : list N := [130; 134; 132; 190; 88; 8; 110; 111; 45; 99; 97; 99; 104; 101].
Definition c3_3 : list N := [130; 135; 133; 191; 64; 10; 99; 117; 115; 116; 111; 109; 45; 107; 101; 121;
                             12; 99; 117; 115; 116; 111; 109; 45; 118; 97; 108; 117; 101].

Definition fstr (n v : string) : list N * list N := (bstr n, bstr v).

Example rfc7541_C_3 hd :
  let r1 := decode hd (decoder_new 4096) c3_1 in
  let r2 := decode hd (r_dec r1) c3_2 in
  let r3 := decode hd (r_dec r2) c3_3 in
  (r_verdict r1, r_fields r1, t_size (d_table (r_dec r1))) =
    (VOk, [fstr ":method" "GET"; fstr ":scheme" "http"; fstr ":path" "/";
           fstr ":authority" "www.example.com"], 57) /\
  (r_verdict r2, r_fields r2, t_size (d_table (r_dec r2))) =
    (VOk, [fstr ":method" "GET"; fstr ":scheme" "http"; fstr ":path" "/";
           fstr ":authority" "www.example.com"; fstr "cache-control" "no-cache"], 110) /\
  (r_verdict r3, r_fields r3, t_size (d_table (r_dec r3))) =
    (VOk, [fstr ":method" "GET"; fstr ":scheme" "https"; fstr ":path" "/index.html";
           fstr ":authority" "www.example.com"; fstr "custom-key" "custom-value"], 164) /\
  ent (r_dec r3) = [fstr "custom-key" "custom-value"; fstr "cache-control" "no-cache";
                    fstr ":authority" "www.example.com"].
Proof. vm_compute. auto. Qed.

(* ... the reference decoder says the same *)
Example rfc7541_C_3_reference hd :
  match ref_decode_block hd h2_int_limit (rstate_init 4096) c3_1 with
  | Some (fs1, rs1) =>
    match ref_decode_block hd h2_int_limit rs1 c3_2 with
    | Some (fs2, rs2) =>
      match ref_decode_block hd h2_int_limit rs2 c3_3 with
      | Some (fs3, rs3) => table_size (r_dyn rs3) = 164 /\ length fs1 = 4%nat /\ length fs2 = 5%nat /\
                           fs3 = r_fields (decode hd (r_dec (decode hd (r_dec (decode hd (decoder_new 4096) c3_1)) c3_2)) c3_3)
      | None => False
      end
    | None => False
    end
  | None => False
  end.
Proof. vm_compute. auto. Qed.

(* C.5: responses, SETTINGS_HEADER_TABLE_SIZE = 256, evictions *)
Definition c5_1 : list N :=
  [72; 3; 51; 48; 50; 88; 7; 112; 114; 105; 118; 97; 116; 101; 97; 29; 77; 111; 110; 44; 32; 50; 49; 32;
   79; 99; 116; 32; 50; 48; 49; 51; 32; 50; 48; 58; 49; 51; 58; 50; 49; 32; 71; 77; 84; 110; 23; 104; 116;
   116; 112; 115; 58; 47; 47; 119; 119; 119; 46; 101; 120; 97; 109; 112; 108; 101; 46; 99; 111; 109].
Definition c5_2 : list N := [72; 3; 51; 48; 55; 193; 192; 191].
Definition c5_3 : list N :=
  [136; 193; 97; 29; 77; 111; 110; 44; 32; 50; 49; 32; 79; 99; 116; 32; 50; 48; 49; 51; 32; 50; 48; 58; 49;
   51; 58; 50; 50; 32; 71; 77; 84; 192; 90; 4; 103; 122; 105; 112; 119; 56; 102; 111; 111; 61; 65; 83; 68;
   74; 75; 72; 81; 75; 66; 90; 88; 79; 81; 87; 69; 79; 80; 73; 85; 65; 88; 81; 87; 69; 79; 73; 85; 59; 32;
   109; 97; 120; 45; 97; 103; 101; 61; 51; 54; 48; 48; 59; 32; 118; 101; 114; 115; 105; 111; 110; 61; 49].

Example rfc7541_C_5 hd :
  let r1 := decode hd (decoder_new 256) c5_1 in
  let r2 := decode hd (r_dec r1) c5_2 in
  let r3 := decode hd (r_dec r2) c5_3 in
  (r_verdict r1, r_fields r1, t_size (d_table (r_dec r1))) =
    (VOk, [fstr ":status" "302"; fstr "cache-control" "private";
           fstr "date" "Mon, 21 Oct 2013 20:13:21 GMT"; fstr "location" "https://www.example.com"], 222) /\
  (r_verdict r2, r_fields r2, t_size (d_table (r_dec r2))) =
    (VOk, [fstr ":status" "307"; fstr "cache-control" "private";
           fstr "date" "Mon, 21 Oct 2013 20:13:21 GMT"; fstr "location" "https://www.example.com"], 222) /\
  (r_verdict r3, r_fields r3, t_size (d_table (r_dec r3))) =
    (VOk, [fstr ":status" "200"; fstr "cache-control" "private";
           fstr "date" "Mon, 21 Oct 2013 20:13:22 GMT"; fstr "location" "https://www.example.com";
           fstr "content-encoding" "gzip";
           fstr "set-cookie" "foo=ASDJKHQKBZXOQWEOPIUAXQWEOIU; max-age=3600; version=1"], 215) /\
  ent (r_dec r3) =
    [fstr "set-cookie" "foo=ASDJKHQKBZXOQWEOPIUAXQWEOIU; max-age=3600; version=1";
     fstr "content-encoding" "gzip"; fstr "date" "Mon, 21 Oct 2013 20:13:22 GMT"].
Proof. vm_compute. auto. Qed.

(* C.4: the requests of C.3 with Huffman coded strings; [hd] given as the four facts the
   example needs about the Huffman code *)
Definition c4_hd : list N -> option (list N) :=
  hd_of_table [([241; 227; 194; 229; 242; 58; 107; 160; 171; 144; 244; 255], Some (bstr "www.example.com"));
               ([168; 235; 16; 100; 156; 191], Some (bstr "no-cache"));
               ([37; 168; 73; 233; 91; 169; 125; 127], Some (bstr "custom-key"));
               ([37; 168; 73; 233; 91; 184; 232; 180; 191], Some (bstr "custom-value"))].
Definition c4_1 : list N := [130; 134; 132; 65; 140; 241; 227; 194; 229; 242; 58; 107; 160; 171; 144; 244; 255].
Definition c4_2 : list N := [130; 134; 132; 190; 88; 134; 168; 235; 16; 100; 156; 191].
Definition c4_3 : list N := [130; 135; 133; 191; 64; 136; 37; 168; 73; 233; 91; 169; 125; 127;
                             137; 37; 168; 73; 233; 91; 184; 232; 180; 191].

Example rfc7541_C_4 :
  let r1 := decode c4_hd (decoder_new 4096) c4_1 in
  let r2 := decode c4_hd (r_dec r1) c4_2 in
  let r3 := decode c4_hd (r_dec r2) c4_3 in
  (r_verdict r1, t_size (d_table (r_dec r1))) = (VOk, 57) /\
  (r_verdict r2, t_size (d_table (r_dec r2))) = (VOk, 110) /\
  (r_verdict r3, r_fields r3, t_size (d_table (r_dec r3))) =
    (VOk, [fstr ":method" "GET"; fstr ":scheme" "https"; fstr ":path" "/index.html";
           fstr ":authority" "www.example.com"; fstr "custom-key" "custom-value"], 164).
Proof. vm_compute. auto. Qed.

Example err_index_zero hd : r_verdict (decode hd (decoder_new 4096) [128]) = VErr InvalidTableIndex.
Proof. reflexivity. Qed.
Example err_index_beyond hd : r_verdict (decode hd (decoder_new 4096) [190]) = VErr InvalidTableIndex.
Proof. reflexivity. Qed.
Example err_update_oversize hd :
  r_verdict (decode hd (decoder_new 4096) [63; 226; 31]) = VErr InvalidMaxDynamicSize.   (* 4097 *)
Proof. vm_compute. reflexivity. Qed.
Example err_update_misplaced hd :
  r_verdict (decode hd (decoder_new 4096) [130; 32]) = VErr InvalidMaxDynamicSize.
Proof. vm_compute. reflexivity. Qed.
Example err_int_overflow hd :
  r_verdict (decode hd (decoder_new 4096) [255; 128; 128; 128; 128; 0]) = VErr IntegerOverflow.
Proof. vm_compute. reflexivity. Qed.
Example err_huffman (hd : list N -> option (list N)) : hd [255] = None ->
  r_verdict (decode hd (decoder_new 4096) [0; 129; 255; 0]) = VErr InvalidHuffmanCode.
Proof.
  (* step by step: evaluating the whole term would also normalise the branch [hd [255] = Some s] *)
  intros H. rewrite decode_is_run, run_cons. unfold decode_step.
  change (repr_load 0) with (@inl repr dec_err LiteralWithoutIndexing). cbv iota.
  unfold decode_literal. change (decode_int 4 [0; 129; 255; 0]) with (@ROk N 0 [129; 255; 0]).
  cbv iota. change (0 =? 0) with true. cbv iota. unfold try_decode_string.
  change (decode_int 7 [129; 255; 0]) with (@ROk N 1 [255; 0]). cbv iota.
  change (split_n 1 [255; 0]) with (Some ([255], [0])). cbv iota.
  change (N.land 129 128 =? 128) with true. cbv iota. rewrite H. reflexivity.
Qed.
Example err_truncated hd :
  r_verdict (decode hd (decoder_new 4096) [64; 10; 99; 117]) = VErr (NeedMore StringUnderflow) /\
  r_left (decode hd (decoder_new 4096) [130; 64; 10; 99; 117]) = [64; 10; 99; 117].
Proof. vm_compute. auto. Qed.
Example oversize_entry_empties_table hd :
  (* table of 64 octets holding one entry; an entry of 32+1+40 octets does not fit: not an error,
     the table is emptied (RFC 7541 4.4) *)
  let r1 := decode hd (decoder_new 64) [64; 1; 97; 1; 98] in
  let r2 := decode hd (r_dec r1) ([64; 1; 99; 40] ++ repeat 100 40) in
  (r_verdict r1, t_size (d_table (r_dec r1))) = (VOk, 34) /\
  (r_verdict r2, length (r_fields r2), t_size (d_table (r_dec r2)), ent (r_dec r2)) = (VOk, 1%nat, 0, []).
Proof. vm_compute. auto. Qed.

(* the known findings, as facts about the model (reproduced on the real decoder by the
   harness: corpus/hpackdec/cases.jsonl) *)

(* KF-C11-1.  `can_resize` is a local of Decoder::decode: it is true again when decoding resumes
   with the next CONTINUATION fragment.  Whole block: error.  Same block in two fragments:
   accepted, and the table maximum is set to 0 in the middle of the block. *)
Example chunking_differs_misplaced_update hd :
  let d := decoder_new 4096 in
  r_verdict (decode hd d (concat [[130]; [32]])) = VErr InvalidMaxDynamicSize /\
  size_update_after_field hd d (concat [[130]; [32]]) /\
  r_verdict (decode_chunks hd d [[130]; [32]]) = VOk /\
  tmax (r_dec (decode_chunks hd d [[130]; [32]])) = 0 /\
  ref_decode_block hd h2_int_limit (abs d) [130; 32] = None.
Proof. unfold size_update_after_field. vm_compute. auto. Qed.

Theorem known_1_refuted :
  ~ (forall (hd : list N -> option (list N)) d frags, frags <> [] ->
       same_result (decode_chunks hd d frags) (decode hd d (concat frags))).
Proof.
  intros H. specialize (H (fun _ => None) (decoder_new 4096) [[130]; [32]] ltac:(discriminate)).
  destruct H as (_ & Hv & _). vm_compute in Hv. discriminate.
Qed.

(* The ceiling in force for the next block is below the table's maximum: the peer owes a size
   update (RFC 7541 4.2).  h2 does not check that it sends one (known finding KF-C11-3), so the 4.2
   clause of the RFC holds of an accepted block only when nothing is pending
   (C11_hpack_decode_sound_rfc_except_known in Properties/C11_hpack.v). *)
Definition required_update_pending (d : decoder) : Prop :=
  d_last_max (take_queued d) < tmax d.

Example hpack_table_within_limit_example :
  wf (decoder_new 4096) /\ ~ required_update_pending (decoder_new 4096).
Proof. split; [apply wf_table_new|]. unfold required_update_pending. vm_compute. discriminate. Qed.

Theorem hpack_decode_sound_rfc_except_known :
  forall hd d bs,
  wf d -> octets bs ->
  ~ required_update_pending d ->
  r_verdict (decode hd d bs) = VOk ->
  rfc_block_decodes hd h2_int_limit (abs (take_queued d)) bs
                    (r_fields (decode hd d bs)) (abs (r_dec (decode hd d bs))).
Proof.
  intros hd d bs Hwf Hb Hle Hv. split; [apply hpack_decode_sound; assumption|].
  left. unfold abs. cbn [r_max r_limit]. rewrite take_queued_table.
  unfold required_update_pending in Hle. lia.
Qed.

Theorem hpack_table_within_limit_except_known :
  forall hd d frags,
  wf d -> ~ required_update_pending d ->
  let d' := r_dec (decode_chunks hd d frags) in
  t_size (d_table d') <= t_max (d_table d') /\ t_max (d_table d') <= d_last_max d'.
Proof.
  intros hd d frags Hwf Hle. cbv zeta. unfold required_update_pending in Hle.
  destruct (decode_chunks_from_inv hd frags d [] Hwf) as ((_ & _ & A) & _ & C & D & _).
  fold (decode_chunks hd d frags) in A, C, D. unfold last_limit_of in *.
  split; [exact A|]. destruct D as [D|D]; lia.
Qed.

(* KF-C11-3.  A lowered SETTINGS_HEADER_TABLE_SIZE is only a ceiling for later size updates: when
   the peer does not send the size update RFC 7541 4.2 requires, the block is accepted and the
   table keeps more than the advertised limit. *)
Example limit_reduction_not_enforced hd :
  let d1 := r_dec (decode hd (decoder_new 4096)
                     [64; 10; 99; 117; 115; 116; 111; 109; 45; 107; 101; 121;
                      13; 99; 117; 115; 116; 111; 109; 45; 104; 101; 97; 100; 101; 114]) in
  let d2 := queue_size_update d1 0 in
  let r := decode hd d2 [130] in
  required_update_pending d2 /\
  r_verdict r = VOk /\ d_last_max (r_dec r) = 0 /\ t_size (d_table (r_dec r)) = 55 /\
  tmax (r_dec r) = 4096 /\
  ref_decode_block hd h2_int_limit (abs (take_queued d2)) [130] <> None /\
  rfc_ref_decode_block hd h2_int_limit (abs (take_queued d2)) [130] = None.
Proof. unfold required_update_pending. vm_compute. repeat split; auto; discriminate. Qed.

(* the statements without the exception are false: the table can exceed the limit in force, and
   a block is accepted that the RFC (with 4.2) rejects -- the block [130] after this history
   (RFC 7541 C.2.1 is stored, then a SETTINGS_HEADER_TABLE_SIZE of 0 is acknowledged) *)
Definition known_3_history : list event :=
  [EBlock [[64; 10; 99; 117; 115; 116; 111; 109; 45; 107; 101; 121;
            13; 99; 117; 115; 116; 111; 109; 45; 104; 101; 97; 100; 101; 114]];
   EQueue 0].

Theorem known_3_refuted :
  ~ (forall (hd : list N -> option (list N)) size evs,
       let d := run_events hd (decoder_new size) evs in
       t_size (d_table d) <= d_last_max d) /\
  ~ (forall (hd : list N -> option (list N)) d bs, wf d -> octets bs ->
       r_verdict (decode hd d bs) = VOk ->
       rfc_block_decodes hd h2_int_limit (abs (take_queued d)) bs
                         (r_fields (decode hd d bs)) (abs (r_dec (decode hd d bs)))).
Proof.
  split; intros H.
  - specialize (H (fun _ => None) 4096 (known_3_history ++ [EBlock [[130]]])). vm_compute in H.
    apply H. reflexivity.
  - set (hd := fun _ : list N => @None (list N)).
    specialize (H hd (run_events hd (decoder_new 4096) known_3_history) [130]
                  (proj1 (run_events_inv hd known_3_history _ 4096 (hist_inv_new 4096)))
                  ltac:(apply bytes_ok_octets; reflexivity) ltac:(vm_compute; reflexivity)).
    apply rfc_ref_decode_block_spec in H. vm_compute in H. discriminate.
Qed.

(* an empty literal name is a hard error whole and in fragments (h2 commit a9c11d7; before, the
   fragmented block was accepted with the header dropped) *)
Example empty_name_is_hard_error hd :
  let d := decoder_new 4096 in
  r_verdict (decode hd d [0; 0; 1; 97; 130]) = VErr InvalidUtf8 /\
  r_verdict (decode_chunks hd d [[0; 0; 1; 97]; [130]]) = VErr InvalidUtf8 /\
  r_fields (decode_chunks hd d [[0; 0; 1; 97]; [130]]) = [].
Proof. vm_compute. auto. Qed.
