(* C18 over Model/Bounds.v: the DATA-frame budget (dstep), the quotas of the counts model under the admission decisions and
   under the peer's moves (cstep, bstep), the two quantities no configuration value caps, and the bound on a classified
   snapshot. *)
From H2V Require Import Base.Tac Model.Counts Model.Bounds Proofs.CountsProofs.

Local Open Scope N_scope.

(* while the connection has not been failed: the budget available plus the cost of the buffered
   frames is at most what the budget started with plus what large frames paid back *)
Definition DInv (mx : N) (st : dstate) : Prop :=
  d_max st = mx /\
  (d_failed st = false ->
   d_avail st <= mx /\ d_avail st + buf_cost (d_buf st) <= mx + d_repl st /\
   count_if is_zero (d_buf st) <= d_empty st /\ d_empty st <= MAX_EMPTY).

Lemma ndel_sum (g : N -> N) (F : list N -> N) x :
  (forall y l, F (y :: l) = g y + F l) ->
  forall l r, ndel x l = Some r -> F l = g x + F r.
Proof.
  intros HF. induction l as [|y l IH]; cbn [ndel]; [discriminate|]. intros r.
  destruct (N.eqb_spec x y) as [->|_]; [intros [= <-]; apply HF|].
  destruct (ndel x l) as [r0|]; [|discriminate]. intros [= <-].
  rewrite !HF, (IH r0 eq_refl). lia.
Qed.

Lemma dcost_cases len :
  (0 < len < DF_T /\ dcost len = DF_T - len) \/ ((len = 0 \/ DF_T <= len) /\ dcost len = 0).
Proof.
  unfold dcost. destruct (N.eqb_spec len 0), (N.ltb_spec len DF_T); cbn [orb negb]; lia.
Qed.

Theorem dstep_inv mx st l st' o : DInv mx st -> dstep st l = Some (st', o) -> DInv mx st'.
Proof.
  (* C, Z: what the frame [len] adds to the cost and to the number of empty frames of the buffer *)
  intros [M H] E. destruct l as [len|len]; cbn [dstep] in E; pose proof (dcost_cases len) as D.
  - pose proof (eq_refl : buf_cost (len :: d_buf st) = dcost len + buf_cost (d_buf st)) as C.
    pose proof (eq_refl : count_if is_zero (len :: d_buf st)
                          = (if len =? 0 then 1 else 0) + count_if is_zero (d_buf st)) as Z.
    destruct (len =? 0) eqn:E0; [destruct (MAX_EMPTY <? d_empty st + 1) eqn:E2
                                |destruct (len <? DF_T) eqn:E1; [destruct (d_avail st <? DF_T - len) eqn:E2|]].
    all: injection E as <- _; (split; [exact M|]); cbn [d_failed d_avail d_max d_empty d_buf d_repl].
    (* the two outcomes that fail the connection have nothing to show; the other three are arithmetic *)
    all: try discriminate; intros Hf; specialize (H Hf); unfold replenish; lia.
  - destruct (ndel len (d_buf st)) as [buf|] eqn:En; [|discriminate].
    pose proof (ndel_sum dcost buf_cost len (fun _ _ => eq_refl) _ _ En) as C.
    pose proof (ndel_sum (fun x => if x =? 0 then 1 else 0) (count_if is_zero) len (fun _ _ => eq_refl) _ _ En) as Z.
    cbn beta in Z.
    destruct (len =? 0) eqn:E0; [|destruct (len <? DF_T) eqn:E1]; cbn [negb andb] in E.
    all: injection E as <- _; (split; [exact M|]); cbn [d_failed d_avail d_max d_empty d_buf d_repl].
    all: intros Hf; specialize (H Hf); unfold replenish; lia.
Qed.

Lemma dinit_inv mx : DInv mx (dinit mx).
Proof. split; [reflexivity|]. intros _. cbn. unfold MAX_EMPTY. lia. Qed.

Theorem drun_inv mx ls : forall st st', DInv mx st -> drun st ls = Some st' -> DInv mx st'.
Proof.
  induction ls as [|l ls IH]; intros st st' H; cbn [drun]; [intros [= <-]; exact H|].
  destruct (dstep st l) as [[st1 o]|] eqn:E1; [|discriminate]. exact (IH st1 st' (dstep_inv _ _ _ _ _ H E1)).
Qed.

Lemma tiny_le_cost l : count_if is_tiny l <= buf_cost l.
Proof.
  induction l as [|x l IH]; cbn [count_if buf_cost]; [lia|].
  change (is_tiny x) with (negb (x =? 0) && (x <? DF_T)). pose proof (dcost_cases x).
  destruct (N.eqb_spec x 0), (N.ltb_spec x DF_T); cbn [negb andb]; lia.
Qed.

(* a frame beyond the budget is answered with the GOAWAY decision *)
Theorem data_frame_refused st len st' o :
  dstep st (DRecord len) = Some (st', o) ->
  (o = [DExhausted] <-> (len = 0 /\ MAX_EMPTY < d_empty st + 1) \/ (0 < len < DF_T /\ d_avail st < DF_T - len)) /\
  (o = [DExhausted] -> d_failed st' = true /\ d_avail st' = d_avail st).
Proof.
  cbn [dstep].
  destruct (N.eqb_spec len 0); [destruct (N.ltb_spec MAX_EMPTY (d_empty st + 1))
                               |destruct (N.ltb_spec len DF_T); [destruct (N.ltb_spec (d_avail st) (DF_T - len))|]].
  all: intros [= <- <-]; cbn [d_failed d_avail].
  (* in each of the five outcomes the output is known: where it is [DExhausted] the tests just made give the
     right-hand side, where it is [DOk] they contradict it *)
  all: split; [split; intros X; [try discriminate X|try reflexivity]; lia|intros X; try discriminate X; auto].
Qed.

Example demo_budget :
  match drun (dinit 600) [DRecord 1; DRecord 1; DRelease 1; DRecord 1; DRecord 1] with
  | Some st => d_failed st = true /\ d_avail st = 90
  | None => False
  end.
Proof. vm_compute. split; reflexivity. Qed.

Local Open Scope Z_scope.

Definition QInv (st : cstate) : Prop :=
  CInv st /\ num_lreset st <= max_lreset st /\ num_rreset st <= max_rreset st /\
  match max_lerr st with Some m => num_lerr st <= m | None => True end.

Theorem cstep_quota st l st' o : QInv st -> cstep st l = COk st' o -> QInv st'.
Proof.
  intros (HI & Q1 & Q2 & Q3) E.
  pose proof (cstep_inv st l HI) as X. rewrite E in X. split; [exact X|]. clear X.
  destruct HI as (_ & _ & _ & _ & _ & P3 & P4 & P5 & _).
  destruct l as [| | | | |key|key| | | | |mx ini|key ob]; cbn [cstep] in E.
  - injection E as <- _. simp_c. auto.
  - injection E as <- _. simp_c. auto.
  - injection E as <- _. simp_c. auto.
  - injection E as <- _. simp_c. auto.
  - injection E as <- _. simp_c. auto.
  - destruct (p_send st), (below (num_send st) (max_send st)), (cmem key (counted st)); try discriminate.
    injection E as <- _. simp_c. auto.
  - destruct (p_recv st), (below (num_recv st) (max_recv st)), (cmem key (counted st)); try discriminate.
    injection E as <- _. simp_c. auto.
  - destruct (p_lreset st); [|discriminate]. destruct (Z.ltb_spec (num_lreset st) (max_lreset st)); [|discriminate].
    injection E as <- _. simp_c. repeat split; auto; lia.
  - destruct (p_rreset st); [|discriminate]. destruct (Z.ltb_spec (num_rreset st) (max_rreset st)); [|discriminate].
    injection E as <- _. simp_c. repeat split; auto; lia.
  - destruct (Z.leb_spec (num_rreset st) 0); [discriminate|]. injection E as <- _. simp_c. repeat split; auto; lia.
  - destruct (p_lerr st); [|discriminate]. pose proof (P5 eq_refl) as B. rewrite B in E.
    injection E as <- _. simp_c. repeat split; auto. destruct (max_lerr st); [unfold below in B; lia|exact I].
  - destruct mx as [v|]; [|destruct ini]; injection E as <- _; simp_c; auto.
  - destruct (transition_after_resets st key ob _ _ E) as (-> & -> & -> & -> & -> & ->).
    repeat split; auto. destruct (negb _ && _); lia.
Qed.

Lemma cinit_quota ms mr mlr mrr mle :
  limit_ok mr -> 0 <= mlr -> 0 <= mrr -> limit_ok mle -> QInv (cinit ms mr mlr mrr mle).
Proof.
  intros H1 H2 H3 H4. split; [apply cinit_inv; exact H1|]. unfold cinit. simp_c.
  repeat split; try lia. destruct mle; [exact H4|exact I].
Qed.

(* the quotas hold after ANY sequence of calls into counts.rs *)
Theorem crun_quota ls : forall st, QInv st ->
  match crun st ls with
  | inl (Some (st', _)) => QInv st'
  | _ => True
  end.
Proof.
  induction ls as [|l ls IH]; intros st H; cbn [crun]; [exact H|].
  destruct (cstep st l) as [st1 o1|n|n] eqn:E; [|exact I|exact I].
  specialize (IH st1 (cstep_quota _ _ _ _ H E)). destruct (crun st1 ls) as [[[st2 os]|]|[k r]]; [exact IH|exact I|exact I].
Qed.

Theorem open_refuses st st' d : recv_open st = (st', d) ->
  counted st' = counted st /\ num_recv st' = num_recv st /\
  (d = Admit <-> below (num_recv st) (max_recv st) = true) /\ (d = Refuse <-> below (num_recv st) (max_recv st) = false).
Proof.
  unfold recv_open. cbn [cstep]. destruct (below (num_recv st) (max_recv st)); intros [= <- <-]; simp_c;
    repeat split; auto; discriminate.
Qed.

Theorem count_stream_admits st key st' d : QInv st -> count_stream st key = (st', d) ->
  (d = Admit -> num_recv st' = num_recv st + 1 /\ match max_recv st' with Some m => num_recv st' <= m | None => True end) /\
  (d = Refuse -> num_recv st' = num_recv st /\ counted st' = counted st) /\ d <> Impossible \/ cmem key (counted st) = true.
Proof.
  intros _. unfold count_stream. cbn [cstep]. simp_c.
  destruct (below (num_recv st) (max_recv st)) eqn:Eb; cbn [negb].
  - destruct (cmem key (counted st)); [right; reflexivity|]. intros [= <- <-]. left. simp_c.
    repeat split; try discriminate. destruct (max_recv st); [unfold below in Eb; lia|exact I].
  - intros [= <- <-]. left. simp_c. repeat split; auto; discriminate.
Qed.

Theorem recv_reset_quota st st' d : QInv st -> recv_reset_unaccepted st = (st', d) ->
  (d = Admit /\ num_rreset st < max_rreset st /\ num_rreset st' = num_rreset st + 1 /\ num_rreset st' <= max_rreset st') \/
  (d = GoAwayCalm /\ num_rreset st' = num_rreset st /\ num_rreset st = max_rreset st).
Proof.
  intros (_ & _ & Q2 & _). unfold recv_reset_unaccepted. cbn [cstep]. simp_c.
  destruct (Z.ltb_spec (num_rreset st) (max_rreset st)); cbn [negb]; intros [= <- <-]; simp_c; [left|right];
    repeat split; lia.
Qed.

Theorem library_reset_quota st st' d : QInv st -> library_reset st = (st', d) ->
  (d = Admit /\ below (num_lerr st) (max_lerr st) = true /\ num_lerr st' = num_lerr st + 1 /\
   match max_lerr st' with Some m => num_lerr st' <= m | None => True end) \/
  (d = GoAwayCalm /\ num_lerr st' = num_lerr st /\ max_lerr st = Some (num_lerr st)).
Proof.
  intros (_ & _ & _ & Q3). unfold library_reset. cbn [cstep]. simp_c. unfold below.
  destruct (max_lerr st) as [m|]; [destruct (Z.ltb_spec (num_lerr st) m)|]; cbn [negb]; intros [= <- <-]; simp_c;
    [left|right|left]; repeat split; try lia. f_equal. lia.
Qed.

Definition BInv (st : bstate) : Prop := QInv (b_cs st).

Lemma decision_quota_open c c1 d : QInv c -> recv_open c = (c1, d) -> QInv c1.
Proof.
  intros H. unfold recv_open. destruct (cstep c QRecv) as [s o|n|n] eqn:E1; [|intros [= <- _]; exact H..].
  pose proof (cstep_quota _ _ _ _ H E1). destruct o as [|[[]] [|]]; intros [= <- _]; assumption.
Qed.

(* the decisions made of a query and, on `true`, an increment *)
Lemma decide2_quota c q1 l2 (R : decision) c1 d :
  QInv c ->
  match cstep c q1 with
  | COk s [CBool true] => match cstep s l2 with COk s2 _ => (s2, Admit) | _ => (s, Impossible) end
  | COk s _ => (s, R)
  | _ => (c, Impossible)
  end = (c1, d) -> QInv c1.
Proof.
  intros H. destruct (cstep c q1) as [s o|n|n] eqn:E1; [|intros [= <- _]; exact H..].
  pose proof (cstep_quota _ _ _ _ H E1) as H1.
  destruct o as [|[[]] [|]]; try (intros [= <- _]; assumption).
  destruct (cstep s l2) as [s2 o2|n|n] eqn:E2; intros [= <- _]; try assumption. exact (cstep_quota _ _ _ _ H1 E2).
Qed.

Theorem bstep_inv st l st' o : BInv st -> bstep st l = Some (st', o) -> BInv st'.
Proof.
  unfold BInv, bstep. intros H. destruct (b_failed st); [intros [= <- _]; exact H|].
  destruct l as [key| | |key ob| | | | |].
  - destruct (recv_open (b_cs st)) as [c1 d] eqn:E1. pose proof (decision_quota_open _ _ _ H E1) as H1.
    destruct d; try discriminate; [|intros [= <- _]; exact H1].
    destruct (count_stream c1 key) as [c2 d2] eqn:E2. pose proof (decide2_quota _ QRecv (IncRecv key) Refuse _ _ H1 E2).
    destruct d2; intros [= <- _]; assumption.
  - destruct (recv_reset_unaccepted (b_cs st)) as [c1 d] eqn:E1.
    pose proof (decide2_quota _ QRReset IncRReset GoAwayCalm _ _ H E1).
    destruct d; intros [= <- _]; assumption.
  - destruct (library_reset (b_cs st)) as [c1 d] eqn:E1.
    pose proof (decide2_quota _ QLErr IncLErr GoAwayCalm _ _ H E1) as H1.
    destruct d; try discriminate; [|intros [= <- _]; exact H1].
    destruct (enqueue_reset_expiration c1) as [c2 d2] eqn:E2.
    pose proof (decide2_quota _ QLReset IncLReset NotRemembered _ _ H1 E2).
    destruct d2; intros [= <- _]; assumption.
  - destruct (cstep (b_cs st) (TransitionAfter key ob)) as [c1 o1|n|n] eqn:E1; [|discriminate..].
    intros [= <- _]. exact (cstep_quota _ _ _ _ H E1).
  - destruct (cstep (b_cs st) DecRReset) as [c1 o1|n|n] eqn:E1; [|discriminate..].
    intros [= <- _]. exact (cstep_quota _ _ _ _ H E1).
  - destruct (b_push st); intros [= <- _]; exact H.
  - destruct (b_resv st =? 0)%N; intros [= <- _]; exact H.
  - intros [= <- _]; exact H.
  - destruct (b_info st =? 0)%N; intros [= <- _]; exact H.
Qed.

Theorem brun_inv ls : forall st st', BInv st -> brun st ls = Some st' -> BInv st'.
Proof.
  induction ls as [|l ls IH]; intros st st' H; cbn [brun]; [intros [= <-]; exact H|].
  destruct (bstep st l) as [[st1 o]|] eqn:E1; [|discriminate]. exact (IH st1 st' (bstep_inv _ _ _ _ H E1)).
Qed.

Lemma brun_app l1 : forall st l2, brun st (l1 ++ l2) = match brun st l1 with Some s => brun s l2 | None => None end.
Proof.
  induction l1 as [|l l1 IH]; intros st l2; cbn [app brun]; [reflexivity|].
  destruct (bstep st l) as [[s o]|]; [apply IH|reflexivity].
Qed.

(* KF-C18-1 / KF-C18-2: no configuration value bounds the reserved pushed streams or the queued interim responses *)
Lemma push_promises_run c k i n :
  brun (mkB c k i true false) (repeat BPushPromise n) = Some (mkB c (k + N.of_nat n) i true false).
Proof.
  revert k. induction n as [|n IH]; intros k; cbn [repeat brun]; [do 2 f_equal; lia|].
  cbn. rewrite IH. do 2 f_equal. lia.
Qed.

Lemma interim_responses_run c k i push n :
  brun (mkB c k i push false) (repeat BInfoHeaders n) = Some (mkB c k (i + N.of_nat n) push false).
Proof.
  revert i. induction n as [|n IH]; intros i; cbn [repeat brun]; [do 2 f_equal; lia|].
  cbn. rewrite IH. do 2 f_equal. lia.
Qed.

Local Open Scope N_scope.

Example demo_bound :
  check_bounds (mkBL (Some 5) (Some 100) 10 20 (Some 1024), [mkBS 3 5 2 1 400 0 0 1 5 2 1 0]) = true.
Proof. vm_compute. reflexivity. Qed.
