(* The hand-written coverage table of Model/PanicCover.v has no stale entry (that it is total on the regenerated inventory
   is C08_sites_classified in Properties/C08.v), and the counts the check reports. *)
From Coq Require Import String List NArith Bool.
From H2V Require Import Gen.PanicSites Model.PanicCover.
Import ListNotations.

Lemma table_live : forallb entry_live manual = true.
Proof.
  (* what is evaluated compares kind and ordinal before the names: few pairs agree on both, and the reduction that
     re-checks a compiled file is slow on two file names with a long common prefix *)
  assert (H : forallb (fun e => existsb (fun s : site =>
                let '(f, fn, k, o, _) := s in let '(f', fn', k', o', _) := e in
                N.eqb k k' && N.eqb o o' && String.eqb fn fn' && String.eqb f f') panic_sites) manual = true)
    by (vm_compute; reflexivity).
  rewrite forallb_forall in *. intros e He. specialize (H e He). unfold entry_live. rewrite existsb_exists in *.
  destruct H as (s & Hs & H). exists s. split; [exact Hs|].
  destruct s as [[[[f fn] k] o] t], e as [[[[f' fn'] k'] o'] c]. cbn [site_key_eqb].
  destruct (String.eqb f f'), (String.eqb fn fn'), (N.eqb k k'), (N.eqb o o'); exact H.
Qed.

(* /verif/lib/props/c08.py evaluates `summary` by name and puts the numbers into the evidence file *)
Definition summary : list (string * N) :=
  [("sites"%string, N.of_nat (length panic_sites));
   ("by_theorem"%string, count (fun c => match c with ByTheorem _ => true | _ => false end));
   ("api_misuse"%string, count (fun c => match c with ApiMisuse => true | _ => false end));
   ("infallible"%string, count (fun c => match c with Infallible _ => true | _ => false end));
   ("poisoned"%string, count (fun c => match c with Poisoned => true | _ => false end));
   ("debug_only"%string, count (fun c => match c with DebugOnly => true | _ => false end));
   ("residual"%string, count (fun c => match c with Residual _ => true | _ => false end))].
