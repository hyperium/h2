(* List lemmas for the association-list store of Model/RecvFlow.v, and arithmetic facts about
   unclaimed_capacity. *)
From H2V Require Import Base.Tac Model.RecvFlow.
Local Open Scope Z_scope.

Fixpoint sum_infl (l : list rstream) : Z :=
  match l with [] => 0 | s :: l' => r_infl s + sum_infl l' end.

Lemma rfind_In key l s : rfind key l = Some s -> r_id s = key /\ In s l.
Proof.
  induction l as [|x l IH]; cbn [rfind]; [discriminate|].
  destruct (N.eqb_spec (r_id x) key) as [E|_].
  - intros [= ->]. split; [exact E|now left].
  - intros H. split; [|right]; now apply IH.
Qed.

Lemma rfind_none_notin key l : rfind key l = None -> ~ In key (map r_id l).
Proof.
  induction l as [|x l IH]; cbn [rfind map]; [intros _ []|].
  destruct (N.eqb_spec (r_id x) key) as [|E]; [discriminate|].
  intros H [H1|H1]; [exact (E H1)|exact (IH H H1)].
Qed.

Lemma In_rfind l s : NoDup (map r_id l) -> In s l -> rfind (r_id s) l = Some s.
Proof.
  induction l as [|x l IH]; cbn [rfind map]; intros ND HIn; [destruct HIn|].
  apply NoDup_cons_iff in ND. destruct ND as (Hn & ND).
  destruct HIn as [->|HIn]; [now rewrite N.eqb_refl|].
  destruct (N.eqb_spec (r_id x) (r_id s)) as [E|_]; [|auto].
  destruct Hn. rewrite E. now apply in_map.
Qed.

Lemma Forall_rfind (P : rstream -> Prop) l key s : Forall P l -> rfind key l = Some s -> P s.
Proof. intros H F. rewrite Forall_forall in H. apply H, (rfind_In key), F. Qed.

Lemma rupd_ids s l : map r_id (rupd s l) = map r_id l.
Proof.
  induction l as [|x l IH]; cbn [rupd map]; [reflexivity|].
  destruct (N.eqb_spec (r_id x) (r_id s)) as [E|_]; cbn [map]; congruence.
Qed.

Lemma Forall_rupd (P : rstream -> Prop) s' l : P s' -> Forall P l -> Forall P (rupd s' l).
Proof.
  intros Ps'. induction 1 as [|x l Hx Hl IH]; cbn [rupd]; [constructor|].
  destruct (N.eqb (r_id x) (r_id s')); constructor; assumption.
Qed.

Lemma rfind_rupd key s' l :
  rfind key (rupd s' l) =
  if N.eqb (r_id s') key then match rfind key l with Some _ => Some s' | None => None end
  else rfind key l.
Proof.
  induction l as [|x l IH]; cbn [rfind rupd]; [now destruct (N.eqb (r_id s') key)|].
  destruct (N.eqb_spec (r_id x) (r_id s')) as [E|E]; cbn [rfind].
  - rewrite E. now destruct (N.eqb (r_id s') key).
  - destruct (N.eqb_spec (r_id x) key) as [E1|_]; [|exact IH].
    rewrite <- E1. apply not_eq_sym, N.eqb_neq in E. now rewrite E.
Qed.

Lemma rfind_rupd_other k s' l : k <> r_id s' -> rfind k (rupd s' l) = rfind k l.
Proof. intros Hne. rewrite rfind_rupd. destruct (N.eqb_spec (r_id s') k); [congruence|reflexivity]. Qed.

Lemma rfind_rupd_same s' l s :
  rfind (r_id s') l = Some s -> rfind (r_id s') (rupd s' l) = Some s'.
Proof. intros F. now rewrite rfind_rupd, N.eqb_refl, F. Qed.

Lemma sum_rupd s s' l :
  rfind (r_id s') l = Some s -> sum_infl (rupd s' l) = sum_infl l - r_infl s + r_infl s'.
Proof.
  induction l as [|x l IH]; cbn [rfind rupd sum_infl]; [discriminate|].
  destruct (N.eqb (r_id x) (r_id s')); cbn [sum_infl].
  - intros [= ->]. lia.
  - intros H. rewrite (IH H). lia.
Qed.

Lemma sum_infl_ge l :
  Forall (fun s => 0 <= r_infl s) l -> 0 <= sum_infl l /\ forall s, In s l -> r_infl s <= sum_infl l.
Proof.
  induction 1 as [|x l Hx _ IH]; cbn [sum_infl In]; [split; [lia|intros _ []]|].
  split; [lia|]. intros s [->|HIn]; [lia|]. apply IH in HIn. lia.
Qed.

Lemma rdel_incl key l : incl (rdel key l) l.
Proof.
  induction l as [|y l IH]; cbn [rdel]; [apply incl_refl|].
  destruct (N.eqb (r_id y) key); [apply incl_tl, incl_refl|].
  apply incl_cons; [now left|apply incl_tl, IH].
Qed.

Lemma rdel_ids_NoDup key l : NoDup (map r_id l) -> NoDup (map r_id (rdel key l)).
Proof.
  induction l as [|x l IH]; cbn [rdel map]; intros ND; [constructor|].
  apply NoDup_cons_iff in ND. destruct ND as (Hn & ND).
  destruct (N.eqb (r_id x) key); [assumption|].
  cbn [map]. constructor; [|auto].
  intros HIn. apply Hn. exact (incl_map r_id (rdel_incl key l) _ HIn).
Qed.

Lemma rfind_rdel_other k key l : k <> key -> rfind k (rdel key l) = rfind k l.
Proof.
  intros Hne. induction l as [|y l IH]; cbn [rdel rfind]; [reflexivity|].
  destruct (N.eqb_spec (r_id y) key) as [E|_]; cbn [rfind].
  - destruct (N.eqb_spec (r_id y) k); [congruence|reflexivity].
  - destruct (N.eqb (r_id y) k); [reflexivity|exact IH].
Qed.

Lemma rfind_rdel k key l x :
  NoDup (map r_id l) -> rfind k (rdel key l) = Some x -> rfind k l = Some x.
Proof.
  intros ND F. destruct (rfind_In _ _ _ F) as (Hid & HIn). subst k.
  apply In_rfind; [exact ND|exact (rdel_incl key l x HIn)].
Qed.

Lemma sum_rdel key l s :
  rfind key l = Some s -> sum_infl (rdel key l) = sum_infl l - r_infl s.
Proof.
  induction l as [|x l IH]; cbn [rfind rdel sum_infl]; [discriminate|].
  destruct (N.eqb (r_id x) key); cbn [sum_infl].
  - intros [= ->]. lia.
  - intros H. rewrite (IH H). lia.
Qed.

Definition mark1 (touched : list N) (s : rstream) : rstream :=
  if mem_key (r_id s) touched then s
  else mkR (r_id s) (r_win s) (r_avail s) (r_infl s) (r_pend s) (r_isrecv s) (r_base s) (r_done s) true.

Lemma mark_done_map t l : mark_done t l = map (mark1 t) l.
Proof. reflexivity. Qed.

Lemma mark1_same t s : r_id (mark1 t s) = r_id s /\ r_infl (mark1 t s) = r_infl s /\ r_win (mark1 t s) = r_win s.
Proof. unfold mark1. now destruct (mem_key (r_id s) t). Qed.

Lemma mark_done_ids t l : map r_id (mark_done t l) = map r_id l.
Proof. rewrite mark_done_map, map_map. apply map_ext. intros s. apply mark1_same. Qed.

Lemma mark_done_sum t l : sum_infl (mark_done t l) = sum_infl l.
Proof.
  rewrite mark_done_map. induction l as [|x l IH]; cbn [map sum_infl]; [reflexivity|].
  rewrite IH. now destruct (mark1_same t x) as (_ & -> & _).
Qed.

Lemma rfind_mark_done t key l :
  rfind key (mark_done t l) = option_map (mark1 t) (rfind key l).
Proof.
  rewrite mark_done_map. induction l as [|x l IH]; cbn [map rfind]; [reflexivity|].
  destruct (mark1_same t x) as (-> & _). now destruct (N.eqb (r_id x) key).
Qed.

Lemma mem_key_cons_false k x l : mem_key k (x :: l) = false -> x <> k /\ mem_key k l = false.
Proof. cbn [mem_key]. rewrite orb_false_iff, N.eqb_neq. auto. Qed.

Lemma rupd_rupd a b l : r_id a = r_id b -> rupd b (rupd a l) = rupd b l.
Proof.
  intros Hab. induction l as [|x l IH]; cbn [rupd]; [reflexivity|].
  rewrite Hab. destruct (N.eqb (r_id x) (r_id b)) eqn:E; cbn [rupd].
  - now rewrite Hab, N.eqb_refl.
  - now rewrite E, IH.
Qed.

Lemma unclaimed_some w a u : unclaimed w a = Some u -> u = a - w /\ w < a /\ Z.quot w 2 <= a - w.
Proof.
  unfold unclaimed. destruct (a <=? w) eqn:E; [discriminate|].
  destruct (a - w <? Z.quot w 2) eqn:E1; [discriminate|].
  intros [= <-]. lia.
Qed.

Lemma unclaimed_none w a : unclaimed w a = None -> a <= w \/ (w < a /\ a - w < Z.quot w 2).
Proof.
  unfold unclaimed. destruct (a <=? w) eqn:E; [lia|].
  destruct (a - w <? Z.quot w 2) eqn:E1; [lia|discriminate].
Qed.

Lemma unclaimed_refl w : unclaimed w w = None.
Proof. unfold unclaimed. now rewrite Z.leb_refl. Qed.

(* raising window and available by the same amount never makes capacity due *)
Lemma unclaimed_shift_up w a delta :
  0 <= delta -> unclaimed w a = None -> unclaimed (w + delta) (a + delta) = None.
Proof.
  intros Hd H. apply unclaimed_none in H. unfold unclaimed.
  destruct (a + delta <=? w + delta) eqn:E; [reflexivity|].
  pose proof (Z.quot_le_mono w (w + delta) 2) as Hq.
  destruct (a + delta - (w + delta) <? Z.quot (w + delta) 2) eqn:E1; [reflexivity|lia].
Qed.
