(* Invariants and theorems about the control-plane model (Model/Control.v): C14 (acknowledgements of SETTINGS and PING,
   settings take effect at the acknowledgement, user pings) and C15 (GOAWAY / shutdown).

   Ghost logs.  A theorem about "the frames emitted so far" is stated on a log that is a function of the labels taken and the
   outputs produced only (never of the model state): `updX h l outs` folds the outputs of one step into the log.  Each
   invariant relates the model state to one such log and is proved for every label and every observed input; `run_inv`
   lifts them to all label sequences. *)
From H2V Require Import Base.Tac Base.Bytes Model.Control.
Local Open Scope N_scope.

Lemma user_ne_shutdown : (PING_USER =? PING_SHUTDOWN) = false.
Proof. vm_compute. reflexivity. Qed.

Definition returns (P : st -> list out -> flow -> Prop) (r : outcome) : Prop :=
  match r with SOk s o f => P s o f | _ => True end.

Lemma returns_impl (P Q : st -> list out -> flow -> Prop) r :
  returns P r -> (forall s o f, P s o f -> Q s o f) -> returns Q r.
Proof. destruct r; cbn; auto. Qed.

Lemma ga_go_away_spec s l r d :
  match ga_go_away s (l, r, d) with
  | inl s' => s' = set_ga s (g_close_now s) (Some (l, r)) (g_user s) (Some (l, r, d)) /\
              (forall gl gr, g_going s = Some (gl, gr) -> l <= gl)
  | inr _ => exists gl gr, g_going s = Some (gl, gr) /\ gl < l
  end.
Proof.
  unfold ga_go_away. destruct (g_going s) as [[gl gr]|].
  - destruct (l <=? gl) eqn:El.
    + split; [reflexivity|]. intros gl' gr' [= <- <-]. lia.
    + exists gl, gr. split; [reflexivity|lia].
  - split; [reflexivity|]. discriminate.
Qed.

Lemma opt_pair_eqb_true a l r : opt_pair_eqb a l r = true -> a = Some (l, r).
Proof.
  destruct a as [[l' r']|]; cbn [opt_pair_eqb]; [|discriminate].
  intros H. apply andb_true_iff in H as (A & B). apply N.eqb_eq in A, B. subst. reflexivity.
Qed.

Lemma ga_go_away_now_spec s l r d :
  match ga_go_away_now s (l, r, d) with
  | inl s' => (s' = set_ga s true (g_going s) (g_user s) (g_pending s) /\ g_going s = Some (l, r)) \/
              (s' = set_ga s true (Some (l, r)) (g_user s) (Some (l, r, d)) /\
               (forall gl gr, g_going s = Some (gl, gr) -> l <= gl))
  | inr _ => exists gl gr, g_going s = Some (gl, gr) /\ gl < l
  end.
Proof.
  unfold ga_go_away_now. destruct (opt_pair_eqb (g_going s) l r) eqn:E.
  - left. split; [reflexivity|]. apply opt_pair_eqb_true. exact E.
  - pose proof (ga_go_away_spec (set_ga s true (g_going s) (g_user s) (g_pending s)) l r d) as H.
    destruct (ga_go_away _ _); [right|]; exact H.
Qed.

Lemma conn_go_away_spec s id e :
  match conn_go_away s id e with
  | inl s' => id <= r_max s /\
              s' = set_ga (set_ids s (r_last s) id (s_max s)) (g_close_now s) (Some (id, e)) (g_user s) (Some (id, e, [])) /\
              (forall gl gr, g_going s = Some (gl, gr) -> id <= gl)
  | inr _ => r_max s < id \/ exists gl gr, g_going s = Some (gl, gr) /\ gl < id
  end.
Proof.
  unfold conn_go_away. destruct (r_max s <? id) eqn:E; [left; lia|].
  pose proof (ga_go_away_spec (set_ids s (r_last s) id (s_max s)) id e []) as H.
  destruct (ga_go_away _ _); [split; [lia|]|right]; exact H.
Qed.

Lemma conn_go_away_returns s id e o fl (P : st -> list out -> flow -> Prop) :
  P (set_ga (set_ids s (r_last s) id (s_max s)) (g_close_now s) (Some (id, e)) (g_user s) (Some (id, e, []))) o fl ->
  returns P (lift (conn_go_away s id e) o fl).
Proof.
  intros H. pose proof (conn_go_away_spec s id e) as X. destruct (conn_go_away _ _ _); [|exact I].
  destruct X as (_ & -> & _). exact H.
Qed.

Lemma ga_now_fields s f :
  match ga_go_away_now s f with
  | inl s' =>
    s_local s' = s_local s /\ s_remote s' = s_remote s /\ p_pong s' = p_pong s /\ p_user s' = p_user s /\
    c_error s' = c_error s /\ s_max s' = s_max s /\ g_close_now s' = true
  | inr _ => True
  end.
Proof.
  destruct f as [[l r] d]. pose proof (ga_go_away_now_spec s l r d) as H.
  destruct (ga_go_away_now _ _) as [s'|]; [|exact I].
  destruct H as [(-> & _)|(-> & _)]; repeat split.
Qed.

(* outputs that no ghost log looks at *)
Definition neutral (o : out) : bool :=
  match o with OStreamsError | OSendReset | OConnResult _ => true | _ => false end.

(* the connection can no longer reach poll_ready / poll_next: stable *)
Definition dead (s : st) : Prop := g_close_now s = true \/ c_state s <> COpen.

Definition result_state (s s' : st) : Prop :=
  s' = s \/ (exists c, c <> COpen /\ s' = set_conn s c (c_error s)) \/
  (exists reason debug, ga_go_away_now s (r_last s, reason, debug) = inl s').

Definition result_post (s : st) (o : list out) (r : outcome) : Prop :=
  match r with
  | SOk s' o' fl => (exists x, o' = o ++ x /\ forallb neutral x = true) /\ result_state s s' /\ fl <> FNext
  | SStuck _ => False
  | SPanic _ => exists gl gr, g_going s = Some (gl, gr) /\ gl < r_last s
  end.

Lemma handle_go_away_spec s o reason debug i :
  result_post s o (handle_go_away s o reason debug i) /\ returns (fun s' _ _ => dead s') (handle_go_away s o reason debug i).
Proof.
  unfold handle_go_away.
  destruct (match g_going s with Some (_, r) => r =? reason | None => false end).
  - split; [|right; discriminate].
    split; [exists []; rewrite app_nil_r; auto|]. split; [|discriminate].
    right. left. eexists. split; [|reflexivity]. discriminate.
  - pose proof (ga_go_away_now_spec s (r_last s) reason debug) as H. pose proof (ga_now_fields s (r_last s, reason, debug)) as F.
    destruct (ga_go_away_now _ _) as [s1|] eqn:E; cbn [lift]; [|split; [exact H|exact I]].
    split; [|left; apply F].
    split; [exists [OStreamsError]; auto|]. split; [|discriminate].
    right. right. eauto.
Qed.

Lemma handle_result_spec s o r : result_post s o (handle_result s o r).
Proof.
  assert (Same : result_post s o (SOk s o FLoop)).
  { split; [exists []; rewrite app_nil_r; auto|]. split; [left; reflexivity|discriminate]. }
  assert (Closes : forall c, c <> COpen -> result_state s (set_conn s c (c_error s))).
  { intros c Hc. right. left. eauto. }
  destruct r as [|reason debug i|i ga|ee sv]; cbn [handle_result].
  - split; [exists []; rewrite app_nil_r; auto|]. split; [apply Closes|]; discriminate.
  - apply handle_go_away_spec.
  - destruct i; [exact Same| |exact Same]. destruct ga as [[reason debug]|]; [apply handle_go_away_spec|].
    split; [exists [OSendReset]; auto|]. split; [left; reflexivity|discriminate].
  - destruct (ee && (sv || error_is_no_error s)).
    + split; [exists [OStreamsError]; auto|]. split; [apply Closes|]; discriminate.
    + split; [exists [OStreamsError; OConnResult CRIo]; auto|]. split; [left; reflexivity|discriminate].
Qed.

Lemma handle_result_not_stuck s o r n : handle_result s o r <> SStuck n.
Proof. intros E. pose proof (handle_result_spec s o r) as H. rewrite E in H. exact H. Qed.

Lemma handle_result_not_next s o r s' o' : handle_result s o r <> SOk s' o' FNext.
Proof. intros E. pose proof (handle_result_spec s o r) as H. rewrite E in H. apply H. reflexivity. Qed.

Record hG := mkHG {
  hg_goaways : list (N * N);     (* (last_stream_id, highest id processed so far) of every GOAWAY emitted, newest first *)
  hg_maxproc : N                 (* highest peer-initiated id processed (OProcessed) so far *)
}.

Definition outG (h : hG) (o : out) : hG :=
  match o with
  | OFrame (WGoAway l _ _) => mkHG ((l, hg_maxproc h) :: hg_goaways h) (hg_maxproc h)
  | OProcessed id => mkHG (hg_goaways h) (N.max (hg_maxproc h) id)
  | _ => h
  end.

Definition updG (h : hG) (o : list out) : hG := fold_left outG o h.

Definition hG0 : hG := mkHG [] 0.

(* newest first: every frame's last id is <= the one emitted before it *)
Fixpoint desc (l : list (N * N)) : Prop :=
  match l with
  | [] => True
  | a :: t => match t with [] => True | b :: _ => fst a <= fst b end /\ desc t
  end.

Record InvG (s : st) (h : hG) : Prop := mkInvG {
  G1 : forall l r d, g_pending s = Some (l, r, d) -> g_going s = Some (l, r);
  G2 : g_close_now s = true -> g_going s <> None;
  G3 : g_close_now s = false -> forall l r, g_going s = Some (l, r) -> r = NO_ERROR /\ r_max s <= l;
  G4 : g_going s = None -> r_max s = MAX_ID;
  G5 : r_last s <= r_max s /\ r_max s <= MAX_ID;
  G6 : forall l r, g_going s = Some (l, r) -> r_last s <= l;
  G7 : forall pl b, p_ping s = Some (pl, b) -> pl = PING_SHUTDOWN /\ g_going s <> None;
  G8 : hg_maxproc h = r_last s;
  G9 : Forall (fun e => snd e <= fst e) (hg_goaways h);
  G10 : desc (hg_goaways h);
  G11 : forall l r, g_going s = Some (l, r) -> Forall (fun e => l <= fst e) (hg_goaways h);
  G12 : g_going s = None -> hg_goaways h = []
}.

Definition keepsG (h : hG) (r : outcome) : Prop :=
  match r with SOk s o _ => InvG s (updG h o) | SStuck _ => True | SPanic _ => False end.

Lemma InvG_same s s' h :
  InvG s h ->
  g_close_now s' = g_close_now s -> g_going s' = g_going s -> g_pending s' = g_pending s ->
  r_last s' = r_last s -> r_max s' = r_max s -> p_ping s' = p_ping s -> InvG s' h.
Proof.
  intros [g1 g2 g3 g4 g5 g6 g7 g8 g9 g10 g11 g12] A B C D E F.
  constructor; rewrite ?A, ?B, ?C, ?D, ?E, ?F; auto.
Qed.

(* closes a goal `InvG s' h'` or `keepsG h (SOk s' o fl)` where s' differs from s outside the fields InvG reads and o holds
   nothing the log reads *)
Ltac same_G HI := refine (InvG_same _ _ _ HI _ _ _ _ _ _); reflexivity.

Lemma InvG_set_ping s h pi po u :
  InvG s h -> (forall pl b, pi = Some (pl, b) -> pl = PING_SHUTDOWN /\ g_going s <> None) -> InvG (set_ping s pi po u) h.
Proof. intros [g1 g2 g3 g4 g5 g6 g7 g8 g9 g10 g11 g12] Hpi. constructor; auto. Qed.

(* GoAway::go_away(id, r), possibly after Recv::go_away lowered max_stream_id to rm *)
Lemma InvG_queue s h id r d cn rm :
  InvG s h -> r_last s <= id -> (forall gl gr, g_going s = Some (gl, gr) -> id <= gl) ->
  r_last s <= rm -> rm <= r_max s -> (cn = false -> r = NO_ERROR /\ rm <= id) ->
  InvG (set_ga (set_ids s (r_last s) rm (s_max s)) cn (Some (id, r)) (g_user s) (Some (id, r, d))) h.
Proof.
  intros [g1 g2 g3 g4 g5 g6 g7 g8 g9 g10 g11 g12] Hl Hg Hm1 Hm2 Hc.
  constructor; cbn; auto; try discriminate.
  - (* G1 *) intros l r' d' [= <- <- <-]. reflexivity.
  - (* G3 *) intros E l r' [= <- <-]. auto.
  - (* G5 *) lia.
  - (* G6 *) intros l r' [= <- <-]. exact Hl.
  - (* G7 *) intros pl b H. destruct (g7 pl b H) as (A & _). split; [exact A|discriminate].
  - (* G11 *) intros l r' [= <- <-]. destruct (g_going s) as [[gl gr]|] eqn:Eg; [|rewrite g12; [constructor|reflexivity]].
    apply Forall_impl with (P := fun e => gl <= fst e); [|apply (g11 gl gr); reflexivity].
    intros e He. specialize (Hg gl gr eq_refl). lia.
Qed.

Lemma InvG_go_away_now s h reason d o fl :
  InvG s (updG h o) -> keepsG h (lift (ga_go_away_now s (r_last s, reason, d)) o fl).
Proof.
  intros HI. pose proof (ga_go_away_now_spec s (r_last s) reason d) as H.
  destruct (ga_go_away_now _ _) as [s'|]; cbn [lift keepsG].
  - destruct H as [(-> & Eg)|(-> & Hle)].
    + destruct HI as [g1 g2 g3 g4 g5 g6 g7 g8 g9 g10 g11 g12]. constructor; cbn; auto.
      * (* G2 *) intros _. rewrite Eg. discriminate.
      * (* G3 *) discriminate.
    + apply (InvG_queue s _ (r_last s) reason d true (r_max s)); [exact HI|lia|exact Hle|apply (G5 _ _ HI)|lia|discriminate].
  - destruct H as (gl & gr & Eg & Hlt). pose proof (G6 _ _ HI gl gr Eg). lia.
Qed.

Lemma fold_neutral {H} (f : H -> out -> H) :
  (forall h e, neutral e = true -> f h e = h) ->
  forall x o h, forallb neutral x = true -> fold_left f (o ++ x) h = fold_left f o h.
Proof.
  intros Hn x o h Hx. rewrite fold_left_app. generalize (fold_left f o h). clear o h.
  induction x as [|e x IH]; intros h; cbn [fold_left]; [reflexivity|].
  cbn [forallb] in Hx. apply andb_true_iff in Hx as (A & B).
  rewrite (Hn h e A). apply IH. exact B.
Qed.

Lemma updG_neutral h o x : forallb neutral x = true -> updG h (o ++ x) = updG h o.
Proof. apply fold_neutral. intros h' []; try discriminate; reflexivity. Qed.

Lemma InvG_result s h o r : InvG s (updG h o) -> keepsG h (handle_result s o r).
Proof.
  intros HI. pose proof (handle_result_spec s o r) as H.
  destruct (handle_result s o r) as [s' o' fl|n|n]; cbn [keepsG result_post] in *.
  - destruct H as ((x & -> & Hx) & R & _). rewrite updG_neutral by exact Hx.
    destruct R as [->|[(c & _ & ->)|(reason & debug & E)]].
    + exact HI.
    + same_G HI.
    + pose proof (InvG_go_away_now s h reason debug o fl HI) as H. rewrite E in H. exact H.
  - exact I.
  - destruct H as (gl & gr & Eg & Hlt). pose proof (G6 _ _ HI gl gr Eg). lia.
Qed.

(* poll_go_away: dropping / writing the pending frame *)
Lemma InvG_clear_pending s h :
  InvG s h -> InvG (set_ga s (g_close_now s) (g_going s) (g_user s) None) h.
Proof.
  intros [g1 g2 g3 g4 g5 g6 g7 g8 g9 g10 g11 g12]. constructor; cbn; auto. discriminate.
Qed.

Lemma InvG_emit s h l r d :
  InvG s h -> g_pending s = Some (l, r, d) ->
  InvG (set_ga s (g_close_now s) (g_going s) (g_user s) None) (updG h [OFrame (WGoAway l r d)]).
Proof.
  intros [g1 g2 g3 g4 g5 g6 g7 g8 g9 g10 g11 g12] Ep.
  pose proof (g1 l r d Ep) as Eg.
  constructor; cbn; auto.
  - (* G1 *) discriminate.
  - (* G9 *) constructor; [|exact g9]. cbn. rewrite g8. apply (g6 l r Eg).
  - (* G10 *) split; [|exact g10]. pose proof (g11 l r Eg) as F. destruct (hg_goaways h) as [|b t]; [exact I|].
    inversion F; subst. assumption.
  - (* G11 *) intros l' r' H. rewrite Eg in H. inversion H; subst. constructor; [cbn; lia|apply (g11 l' r' Eg)].
  - (* G12 *) rewrite Eg. discriminate.
Qed.

Lemma InvG_after_go_away s h o l reason :
  InvG s (updG h o) -> g_pending s = None -> g_going s = Some (l, reason) -> keepsG h (after_go_away s o reason).
Proof.
  intros HI Ep Eg. unfold after_go_away, should_close_now. rewrite Ep.
  destruct (g_close_now s) eqn:Ec.
  - destruct (g_user s); apply InvG_result; exact HI.
  - destruct (G3 _ _ HI Ec l reason Eg) as (-> & _). exact HI.
Qed.

(* DynConnection::go_away(id, NO_ERROR) of a graceful shutdown: at its start (id = MAX) and at the shutdown PONG (id =
   last_processed_id) *)
Lemma InvG_conn_go_away s h id :
  InvG s h -> r_last s <= id -> id <= r_max s -> (forall gl gr, g_going s = Some (gl, gr) -> id <= gl) ->
  let s' := set_ga (set_ids s (r_last s) id (s_max s)) (g_close_now s) (Some (id, NO_ERROR)) (g_user s) (Some (id, NO_ERROR, [])) in
  conn_go_away s id NO_ERROR = inl s' /\ InvG s' h.
Proof.
  intros HI Hl Hm Hg s'. pose proof (conn_go_away_spec s id NO_ERROR) as H.
  destruct (conn_go_away _ _ _) as [s1|].
  - destruct H as (_ & -> & _). split; [reflexivity|]. apply InvG_queue; auto. intros _. split; [reflexivity|lia].
  - exfalso. destruct H as [H|(gl & gr & Eg & H)]; [lia|]. specialize (Hg gl gr Eg). lia.
Qed.

Lemma in_poll_ready_spec s :
  in_poll_ready s = true -> c_state s = COpen /\ g_pending s = None /\ g_close_now s = false.
Proof.
  unfold in_poll_ready, is_open. destruct (c_state s); cbn [andb]; try discriminate.
  destruct (g_pending s); cbn [andb]; try discriminate. destruct (g_close_now s); cbn; try discriminate. auto.
Qed.

Lemma can_recv_spec s :
  can_recv s = true ->
  in_poll_ready s = true /\ p_pong s = None /\ (forall pl, p_ping s <> Some (pl, false)) /\ s_remote s = None /\
  (forall p, s_local s <> LToSend p).
Proof.
  unfold can_recv. rewrite !andb_true_iff. intros ((((H & H1) & H2) & H3) & H4).
  split; [exact H|]. split; [destruct (p_pong s); [discriminate|reflexivity]|].
  split; [intros pl E; rewrite E in H2; discriminate|].
  split; [destruct (s_remote s); [discriminate|reflexivity]|].
  intros p E. rewrite E in H4. discriminate.
Qed.

Lemma recvG s h f : InvG s h -> can_recv s = true -> keepsG h (recv_frame s f).
Proof.
  intros HI Hc. apply can_recv_spec in Hc as (Hpr & Hpong & _ & Hrem & _).
  apply in_poll_ready_spec in Hpr as (_ & _ & Hcn).
  destruct f as [p|ae|ack pl|last reason debug|id raised| |]; cbn [recv_frame].
  - rewrite Hrem. same_G HI.
  - destruct (s_local s) as [q|q|]; [|destruct ae|]; try (apply InvG_result; exact HI). same_G HI.
  - rewrite Hpong. destruct ack; [|same_G HI].
    (* the continuation that recv_frame names once and reaches from two branches *)
    set (user_path := let '(u, o) := user_receive_pong _ _ in _).
    assert (Huser : keepsG h user_path).
    { subst user_path. unfold user_receive_pong.
      destruct (p_user s) as [[| | | |]|]; try destruct (pl =? PING_USER); same_G HI. }
    destruct (p_ping s) as [[ppl sent]|] eqn:Epp; [|exact Huser].
    destruct (ppl =? pl); [|exact Huser].
    destruct (G7 _ _ HI ppl sent Epp) as (-> & Hg). rewrite N.eqb_refl. cbn [negb g_going set_ping r_last].
    destruct (g_going s) as [[gl gr]|]; [|contradiction].
    destruct (InvG_conn_go_away (set_ping s None None (p_user s)) h (r_last s)) as (E & H1); cbn [r_last r_max set_ping g_going].
    + apply InvG_set_ping; [exact HI|discriminate].
    + lia.
    + apply (G5 _ _ HI).
    + apply (G6 _ _ HI).
    + cbn [r_last set_ping] in E. rewrite E. exact H1.
  - destruct (s_max s <? last); [apply InvG_result; exact HI|same_G HI].
  - destruct raised; [|exact HI].
    destruct (r_max s <? id) eqn:E1; [exact I|]. destruct (id <=? r_last s) eqn:E2; [exact I|].
    destruct HI as [g1 g2 g3 g4 g5 g6 g7 g8 g9 g10 g11 g12]. constructor; cbn; auto.
    + (* G5 *) lia.
    + (* G6 *) intros l r Eg. destruct (g3 Hcn l r Eg) as (_ & B). lia.
    + (* G8 *) rewrite g8. lia.
  - exact HI.
  - apply InvG_result. exact HI.
Qed.

Theorem stepG s h l : InvG s h -> keepsG h (cstep s l).
Proof.
  intros HI.
  destruct l as [p| |reason| | | | | |hs|c| |c|c|c|c ae|c|f|r]; cbn [cstep].
  (* the user's handle (LTakeUserPings, LUserSendPing, LUserPollPong, LDropConn) touches the cell only *)
  4-7: destruct (p_user s) as [[| | | |]|]; try exact I; same_G HI.
  - (* LSendSettings *)
    destruct (s_local s); same_G HI.
  - (* LGraceful *)
    destruct (g_going s) as [g|] eqn:Eg; [exact HI|].
    destruct (InvG_conn_go_away s h MAX_ID HI) as (-> & H1).
    + destruct (G5 _ _ HI). lia.
    + rewrite (G4 _ _ HI Eg). lia.
    + congruence.
    + cbn [p_ping set_ga set_ids p_pong p_user].
      destruct (p_ping s) as [[pl b]|] eqn:Epp; [destruct (G7 _ _ HI pl b Epp) as (_ & A); contradiction|].
      apply InvG_set_ping; [exact H1|]. intros pl b [= <- <-]. split; [reflexivity|discriminate].
  - (* LAbrupt *)
    apply (InvG_go_away_now (set_ga s (g_close_now s) (g_going s) true (g_pending s))). same_G HI.
  - (* LMaybeClose *)
    apply InvG_go_away_now. exact HI.
  - (* LIdle *)
    destruct (negb (is_open s)); [exact I|]. destruct (_ && negb hs); [apply InvG_go_away_now|]; exact HI.
  - (* LShutdown *)
    destruct (c_state s); try exact I. destruct c; same_G HI.
  - (* LTakeError *)
    destruct (c_state s); try exact I.
    destruct (match c_error s with Some (_, r, d) => (d, r) | None => ([], NO_ERROR) end). same_G HI.
  - (* LPollGoAway *)
    destruct (negb (is_open s)); [exact I|].
    destruct (g_pending s) as [[[l r] d]|] eqn:Ep.
    + destruct c; [|exact HI|apply InvG_clear_pending; exact HI].
      apply (InvG_after_go_away _ h _ l); [apply InvG_emit; assumption|reflexivity|exact (G1 _ _ HI l r d Ep)].
    + destruct (g_close_now s); [|exact HI]. destruct (g_going s) as [[gl gr]|] eqn:Eg; [|exact HI].
      apply (InvG_after_go_away _ h _ gl); assumption.
  - (* LPollPong *)
    destruct (negb (in_poll_ready s)); [exact I|]. destruct (p_pong s); [destruct c|]; same_G HI.
  - (* LPollPing *)
    destruct (negb (in_poll_ready s)); [exact I|].
    destruct (p_ping s) as [[pl [|]]|] eqn:Epp.
    + exact HI.
    + destruct c; try exact HI. apply InvG_set_ping; [exact HI|]. intros pl' b [= <- <-]. exact (G7 _ _ HI _ _ Epp).
    + destruct (p_user s) as [[| | | |]|]; try destruct c; try exact HI. apply InvG_set_ping; [exact HI|discriminate].
  - (* LSettingsAck *)
    destruct (negb (in_poll_ready s)); [exact I|].
    destruct (s_remote s) as [p|]; [|exact HI]. destruct c; try exact HI.
    destruct ae as [r|]; [apply InvG_result|]; same_G HI.
  - (* LSettingsLocal *)
    destruct (negb (in_poll_ready s)); [exact I|]. destruct (s_remote s); [exact I|].
    destruct (s_local s); try destruct c; same_G HI.
  - (* LRecv *)
    destruct (can_recv s) eqn:Ecr; [|exact I]. apply recvG; assumption.
  - (* LResult *)
    destruct (negb (is_open s)); [exact I|]. apply InvG_result. exact HI.
Qed.

Definition opt_list {A} (o : option A) : list A := match o with Some x => [x] | None => [] end.

Record hS := mkHS {
  hs_taken : list sparams;       (* non-ACK SETTINGS frames taken from the codec, newest first *)
  hs_applied : list sparams;     (* OApplyRemote: parameters handed to streams.apply_remote_settings + codec, newest first *)
  hs_acks : N;                   (* SETTINGS ACK frames emitted *)
  hs_fail : N                    (* streams.apply_remote_settings failures *)
}.

Definition labS (h : hS) (l : label) : hS :=
  match l with
  | LRecv (InSettings p) => mkHS (p :: hs_taken h) (hs_applied h) (hs_acks h) (hs_fail h)
  | _ => h
  end.

Definition outS (h : hS) (o : out) : hS :=
  match o with
  | OFrame WSettingsAck => mkHS (hs_taken h) (hs_applied h) (hs_acks h + 1) (hs_fail h)
  | OApplyRemote p _ => mkHS (hs_taken h) (p :: hs_applied h) (hs_acks h) (hs_fail h)
  | OApplyRemoteFailed => mkHS (hs_taken h) (hs_applied h) (hs_acks h) (hs_fail h + 1)
  | _ => h
  end.

Definition updS (h : hS) (l : label) (o : list out) : hS := fold_left outS o (labS h l).
Definition hS0 : hS := mkHS [] [] 0 0.

Record hP := mkHP {
  hp_taken : list N;                 (* payloads of the non-ACK PINGs taken from the codec, newest first *)
  hp_answered : list (N * bool)      (* (payload, true) for every PONG emitted, (payload, false) for a PONG lost to an I/O error *)
}.

Definition labP (h : hP) (l : label) : hP :=
  match l with LRecv (InPing false pl) => mkHP (pl :: hp_taken h) (hp_answered h) | _ => h end.

Definition outP (h : hP) (o : out) : hP :=
  match o with
  | OFrame (WPing true pl) => mkHP (hp_taken h) ((pl, true) :: hp_answered h)
  | OLostPong pl => mkHP (hp_taken h) ((pl, false) :: hp_answered h)
  | _ => h
  end.

Definition updP (h : hP) (l : label) (o : list out) : hP := fold_left outP o (labP h l).
Definition hP0 : hP := mkHP [] [].

Record hL := mkHL {
  hl_sent : list sparams;        (* SETTINGS frames sent (the handshake's first), newest first *)
  hl_applied : list sparams      (* OApplyLocal: applied to the receive side of codec and streams, newest first *)
}.

Definition outL (h : hL) (o : out) : hL :=
  match o with
  | OFrame (WSettings p) => mkHL (p :: hl_sent h) (hl_applied h)
  | OApplyLocal p => mkHL (hl_sent h) (p :: hl_applied h)
  | _ => h
  end.

Definition updL (h : hL) (o : list out) : hL := fold_left outL o h.
Definition hL0 (p0 : sparams) : hL := mkHL [p0] [].

(* the peer's GOAWAY frames that streams.recv_go_away accepted, newest first *)
Definition outE (h : list gframe) (o : out) : list gframe :=
  match o with OStreamsGoAway l r d => (l, r, d) :: h | _ => h end.

Definition updE (h : list gframe) (o : list out) : list gframe := fold_left outE o h.

Record hU := mkHU {
  hu_ok : N;        (* successful send_ping calls *)
  hu_ping : N;      (* PING(USER) frames emitted *)
  hu_ack : N;       (* acknowledgements of a user ping accepted (PENDING_PONG -> RECEIVED_PONG) *)
  hu_pong : N       (* pongs delivered by poll_pong *)
}.

Definition outU (h : hU) (o : out) : hU :=
  match o with
  | OApi APingOk => mkHU (hu_ok h + 1) (hu_ping h) (hu_ack h) (hu_pong h)
  | OFrame (WPing false pl) => if pl =? PING_USER then mkHU (hu_ok h) (hu_ping h + 1) (hu_ack h) (hu_pong h) else h
  | OUserAck => mkHU (hu_ok h) (hu_ping h) (hu_ack h + 1) (hu_pong h)
  | OApi APong => mkHU (hu_ok h) (hu_ping h) (hu_ack h) (hu_pong h + 1)
  | _ => h
  end.

Definition updU (h : hU) (o : list out) : hU := fold_left outU o h.
Definition hU0 : hU := mkHU 0 0 0 0.

Lemma updS_neutral h l o x : forallb neutral x = true -> updS h l (o ++ x) = updS h l o.
Proof. apply fold_neutral. intros h' []; try discriminate; reflexivity. Qed.

Lemma updP_neutral h l o x : forallb neutral x = true -> updP h l (o ++ x) = updP h l o.
Proof. apply fold_neutral. intros h' []; try discriminate; reflexivity. Qed.

Lemma updL_neutral h o x : forallb neutral x = true -> updL h (o ++ x) = updL h o.
Proof. apply fold_neutral. intros h' []; try discriminate; reflexivity. Qed.

Lemma updE_neutral h o x : forallb neutral x = true -> updE h (o ++ x) = updE h o.
Proof. apply fold_neutral. intros h' []; try discriminate; reflexivity. Qed.

Lemma updU_neutral h o x : forallb neutral x = true -> updU h (o ++ x) = updU h o.
Proof. apply fold_neutral. intros h' [| | | | | | | | | | | | | | | |[]]; try discriminate; reflexivity. Qed.

Lemma dead_not_ready s : dead s -> in_poll_ready s = false.
Proof.
  unfold dead, in_poll_ready, is_open. intros [H|H].
  - rewrite H. destruct (c_state s); cbn; try reflexivity. destruct (g_pending s); reflexivity.
  - destruct (c_state s); cbn; try reflexivity. contradiction.
Qed.

(* Frame properties of a step: each of the logs S, P, L, E, U reads one part of the state and is written by few labels (its
   group); every other label leaves that part and the log alone *)
Definition grpS (l : label) : bool := match l with LSettingsAck _ _ | LRecv (InSettings _) => true | _ => false end.
Definition grpP (l : label) : bool := match l with LPollPong _ | LRecv (InPing false _) => true | _ => false end.
Definition grpL (l : label) : bool :=
  match l with LSendSettings _ | LSettingsLocal _ | LRecv (InSettingsAck _) => true | _ => false end.
Definition grpE (l : label) : bool := match l with LTakeError | LRecv (InGoAway _ _ _) => true | _ => false end.
Definition grpU (l : label) : bool :=
  match l with
  | LTakeUserPings | LUserSendPing | LUserPollPong | LDropConn | LPollPing _ | LRecv (InPing _ _) => true
  | _ => false
  end.

Definition frame (l : label) (s s' : st) (o : list out) : Prop :=
  (grpS l = false -> s_remote s' = s_remote s /\ forall h, updS h l o = h) /\
  (grpP l = false -> p_pong s' = p_pong s /\ forall h, updP h l o = h) /\
  (grpL l = false -> s_local s' = s_local s /\ forall h, updL h o = h) /\
  (grpE l = false -> c_error s' = c_error s /\ s_max s' = s_max s /\ forall h, updE h o = h) /\
  (grpU l = false -> p_user s' = p_user s /\ forall h, updU h o = h) /\
  (dead s -> dead s').

Lemma result_state_fields s s' :
  result_state s s' ->
  s_local s' = s_local s /\ s_remote s' = s_remote s /\ p_pong s' = p_pong s /\ p_user s' = p_user s /\
  c_error s' = c_error s /\ s_max s' = s_max s /\ (dead s -> dead s').
Proof.
  intros [->|[(c & Hc & ->)|(reason & debug & E)]].
  - repeat split; auto.
  - repeat split; auto. intros _. right. exact Hc.
  - pose proof (ga_now_fields s (r_last s, reason, debug)) as F. rewrite E in F.
    destruct F as (A1 & A2 & A3 & A4 & A5 & A6 & A7). repeat split; auto. intros _. left. exact A7.
Qed.

Lemma frame_result_state l s0 s s' o : result_state s s' -> frame l s0 s o -> frame l s0 s' o.
Proof.
  intros R (FS & FP & FL & FE & FU & FD). apply result_state_fields in R as (A1 & A2 & A3 & A4 & A5 & A6 & A7).
  unfold frame. rewrite A1, A2, A3, A4, A5, A6. repeat (split; [assumption|]). auto.
Qed.

Lemma frame_of_result l s0 s o r :
  frame l s0 s o -> returns (fun s' o' _ => frame l s0 s' o') (handle_result s o r).
Proof.
  intros F. pose proof (handle_result_spec s o r) as H.
  destruct (handle_result s o r) as [s' o' fl| |]; [|exact I..]. destruct H as ((x & -> & Hx) & R & _).
  apply (frame_result_state _ _ s); [exact R|]. destruct F as (FS & FP & FL & FE & FU & FD).
  unfold frame. setoid_rewrite updS_neutral; [|exact Hx]. setoid_rewrite updP_neutral; [|exact Hx].
  setoid_rewrite updL_neutral; [|exact Hx]. setoid_rewrite updE_neutral; [|exact Hx]. setoid_rewrite updU_neutral; [|exact Hx].
  repeat (split; [assumption|]). assumption.
Qed.

(* for the leaves of the walks below: the new state is s under explicit setters and the outputs are an explicit list, so
   every clause of `frame` either has a group test `true = false` or holds by computation *)
Ltac frame_simple :=
  unfold returns, frame, dead; cbn;
  repeat split; try reflexivity; try discriminate; try (intros; discriminate); auto; try congruence;
  try (intros [Hd|Hd]; [left|right]; auto; discriminate).

Lemma frame_after_go_away l s0 s o reason :
  frame l s0 s o -> returns (fun s' o' _ => frame l s0 s' o') (after_go_away s o reason).
Proof.
  intros F. unfold after_go_away. destruct (should_close_now s).
  - destruct (g_user s); apply frame_of_result; exact F.
  - destruct (reason =? NO_ERROR); [exact F|exact I].
Qed.

Lemma frame_go_away_now l s0 s o reason d fl :
  frame l s0 s o -> returns (fun s' o' _ => frame l s0 s' o') (lift (ga_go_away_now s (r_last s, reason, d)) o fl).
Proof.
  intros F. destruct (ga_go_away_now _ _) as [s'|] eqn:E; [|exact I].
  apply (frame_result_state _ _ s); [right; right; eauto|exact F].
Qed.

(* recv_ping on an acknowledgement: the answer to the shutdown ping if the slot holds its payload, and the business of the user's
   cell otherwise *)
Lemma recv_pong_returns (P : st -> list out -> flow -> Prop) s pl :
  (p_pong s = None ->
   (let '(u, o) := user_receive_pong (p_user s) pl in P (set_ping s (p_ping s) None u) o FNext) /\
   P (set_ga (set_ids (set_ping s None None (p_user s)) (r_last s) (r_last s) (s_max s)) (g_close_now s) (Some (r_last s, NO_ERROR))
             (g_user s) (Some (r_last s, NO_ERROR, []))) [ORecvMax (r_last s)] FNext) ->
  returns P (recv_frame s (InPing true pl)).
Proof.
  intros H. cbn [recv_frame]. destruct (p_pong s); [exact I|]. destruct (H eq_refl) as (Hu & Hs).
  destruct (user_receive_pong _ _) as [u o].
  destruct (p_ping s) as [[ppl sent]|]; [|exact Hu]. destruct (ppl =? pl); [|exact Hu].
  destruct (negb (ppl =? PING_SHUTDOWN)); [exact I|].
  cbn [g_going set_ping r_last]. destruct (g_going s); [|exact I]. apply conn_go_away_returns. exact Hs.
Qed.

Lemma frame_recv s f : returns (fun s' o _ => frame (LRecv f) s s' o) (recv_frame s f).
Proof.
  destruct f as [p|ae|ack pl|last reason debug|id raised| |]; cbn [recv_frame].
  - destruct (s_remote s); [exact I|]. frame_simple.
  - destruct (s_local s) as [q|q|]; [|destruct ae|]; try (apply frame_of_result); frame_simple.
  - destruct ack; [|destruct (p_pong s); [exact I|frame_simple]].
    apply recv_pong_returns. intros Ep. split; [|frame_simple].
    unfold user_receive_pong. destruct (p_user s) as [[| | | |]|]; try destruct (pl =? PING_USER); frame_simple.
  - destruct (s_max s <? last); [apply frame_of_result|]; frame_simple.
  - destruct raised; [|frame_simple].
    destruct (r_max s <? id); [exact I|]. destruct (id <=? r_last s); [exact I|]. frame_simple.
  - frame_simple.
  - apply frame_of_result. frame_simple.
Qed.

Theorem step_frame s l : returns (fun s' o _ => frame l s s' o) (cstep s l).
Proof.
  destruct l as [p| |reason| | | | | |hs|c| |c|c|c|c ae|c|f|r]; cbn [cstep].
  (* LTakeUserPings, LUserSendPing, LUserPollPong, LDropConn *)
  4-7: destruct (p_user s) as [[| | | |]|]; frame_simple.
  - destruct (s_local s); frame_simple.
  - destruct (g_going s); [frame_simple|].
    pose proof (conn_go_away_spec s MAX_ID NO_ERROR) as H.
    destruct (conn_go_away _ _ _); [|exact I]. destruct H as (_ & -> & _). cbn [p_ping set_ga set_ids p_pong p_user].
    destruct (p_ping s); [exact I|]. frame_simple.
  - apply (frame_go_away_now _ _ (set_ga s (g_close_now s) (g_going s) true (g_pending s))). frame_simple.
  - apply frame_go_away_now. frame_simple.
  - destruct (negb (is_open s)); [exact I|]. destruct (_ && negb hs); [apply frame_go_away_now|]; frame_simple.
  - destruct (c_state s); try exact I. destruct c; frame_simple.
  - destruct (c_state s); try exact I.
    destruct (match c_error s with Some (_, r, d) => (d, r) | None => ([], NO_ERROR) end). frame_simple.
  - destruct (negb (is_open s)); [exact I|].
    destruct (g_pending s) as [[[l r] d]|].
    + destruct c; [apply frame_after_go_away| |]; frame_simple.
    + destruct (g_close_now s); [|frame_simple]. destruct (g_going s) as [[gl gr]|]; [apply frame_after_go_away|]; frame_simple.
  - destruct (negb (in_poll_ready s)); [exact I|]. destruct (p_pong s); [destruct c|]; frame_simple.
  - destruct (negb (in_poll_ready s)); [exact I|].
    destruct (p_ping s) as [[pl [|]]|]; [|destruct c|destruct (p_user s) as [[| | | |]|]; try destruct c]; frame_simple.
  - destruct (negb (in_poll_ready s)); [exact I|].
    destruct (s_remote s) as [p|]; [destruct c|]; [|frame_simple..].
    destruct ae as [r|]; [apply frame_of_result|]; frame_simple.
  - destruct (negb (in_poll_ready s)); [exact I|]. destruct (s_remote s) eqn:Er; [exact I|].
    destruct (s_local s); try destruct c; frame_simple.
  - destruct (negb (can_recv s)); [exact I|]. apply frame_recv.
  - destruct (negb (is_open s)); [exact I|]. apply frame_of_result. frame_simple.
Qed.

(* each step theorem walks the labels of the log's group; `step_frame` answers for the others *)
Definition InvS (s : st) (h : hS) : Prop :=
  (hs_fail h = 0 /\ hs_taken h = opt_list (s_remote s) ++ hs_applied h /\ hs_acks h = N.of_nat (length (hs_applied h))) \/
  (hs_fail h = 1 /\ dead s /\
   exists p, s_remote s = Some p /\ hs_taken h = p :: hs_applied h /\ hs_acks h = N.of_nat (length (hs_applied h)) + 1).

Theorem stepS s h l : InvS s h -> returns (fun s' o _ => InvS s' (updS h l o)) (cstep s l).
Proof.
  intros HI. destruct (grpS l) eqn:Eg.
  - (* both labels of the group need poll_ready: the connection is not dead, so no apply has failed *)
    destruct l as [| | | | | | | | | | | | | |c ae| |[p| | | | | |]|]; try discriminate; cbn [cstep].
    + (* LSettingsAck *)
      destruct (in_poll_ready s) eqn:Hpr; [|exact I].
      destruct HI as [(F0 & T & A)|(_ & D & _)]; [|apply dead_not_ready in D; congruence]. cbn [negb].
      destruct (s_remote s) as [p|] eqn:Er; [destruct c|]; [|left; cbn; rewrite ?Er; auto..].
      destruct ae as [r|].
      * cbn [handle_result]. set (s1 := set_settings _ _ _ _).
        destruct (handle_go_away_spec s1 [OFrame WSettingsAck; OApplyRemoteFailed] r [] ILibrary) as (H & Hd).
        destruct (handle_go_away _ _ _ _ _) as [s' o' fl| |]; [|exact I..].
        destruct H as ((x & -> & Hx) & R & _). apply result_state_fields in R as (_ & A2 & _).
        right. cbn [returns]. rewrite updS_neutral by exact Hx. cbn. rewrite F0.
        split; [reflexivity|]. split; [exact Hd|]. exists p. split; [exact A2|]. rewrite T, A. auto.
      * left. cbn. split; [exact F0|]. split; [rewrite T; reflexivity|]. rewrite A. lia.
    + (* LRecv (InSettings p) *)
      destruct (can_recv s) eqn:Ecr; [|exact I]. apply can_recv_spec in Ecr as (Hpr & _ & _ & Hrem & _).
      destruct HI as [(F0 & T & A)|(_ & D & _)]; [|apply dead_not_ready in D; congruence].
      cbn [negb recv_frame]. rewrite Hrem in *. left. cbn. rewrite T. auto.
  - apply (returns_impl _ _ _ (step_frame s l)). intros s' o _ (FS & _ & _ & _ & _ & FD).
    destruct (FS Eg) as (Er & Hu). rewrite Hu.
    destruct HI as [HI|(F1 & D & HI)]; [left|right; split; [exact F1|split; [auto|]]]; rewrite Er; exact HI.
Qed.

Definition InvP (s : st) (h : hP) : Prop := hp_taken h = opt_list (p_pong s) ++ map fst (hp_answered h).

Theorem stepP s h l : InvP s h -> returns (fun s' o _ => InvP s' (updP h l o)) (cstep s l).
Proof.
  unfold InvP. intros HI. destruct (grpP l) eqn:Eg.
  - destruct l as [| | | | | | | | | | | |c| | | |[| |[|] pl| | | |]|]; try discriminate; cbn [cstep].
    + destruct (negb (in_poll_ready s)); [exact I|].
      destruct (p_pong s) as [pl|] eqn:Ep; [destruct c|]; cbn; rewrite ?Ep, HI; reflexivity.
    + destruct (can_recv s) eqn:Ecr; [|exact I]. apply can_recv_spec in Ecr as (_ & Hpong & _).
      cbn [negb recv_frame]. rewrite Hpong in *. cbn. rewrite HI. reflexivity.
  - apply (returns_impl _ _ _ (step_frame s l)). intros s' o _ (_ & FP & _).
    destruct (FP Eg) as (Er & Hu). rewrite Hu, Er. exact HI.
Qed.

Definition InvL (s : st) (h : hL) : Prop :=
  match s_local s with
  | LWaitingAck p => hl_sent h = p :: hl_applied h
  | _ => hl_sent h = hl_applied h
  end.

Lemma InvL_result s h o r : InvL s (updL h o) -> returns (fun s' o' _ => InvL s' (updL h o')) (handle_result s o r).
Proof.
  intros HI. pose proof (handle_result_spec s o r) as H. destruct (handle_result s o r) as [s' o' fl| |]; [|exact I..].
  destruct H as ((x & -> & Hx) & R & _). apply result_state_fields in R as (A1 & _).
  cbn [returns]. unfold InvL. rewrite updL_neutral, A1 by exact Hx. exact HI.
Qed.

Theorem stepL s h l : InvL s h -> returns (fun s' o _ => InvL s' (updL h o)) (cstep s l).
Proof.
  intros HI. destruct (grpL l) eqn:Eg.
  - destruct l as [p| | | | | | | | | | | | | | |c|[|ae| | | | |]|]; try discriminate; cbn [cstep].
    + unfold InvL in *. destruct (s_local s) eqn:El; cbn; rewrite ?El; exact HI.
    + destruct (negb (in_poll_ready s)); [exact I|]. destruct (s_remote s); [exact I|].
      unfold InvL in *. destruct (s_local s) eqn:El; try destruct c; cbn; rewrite ?El, ?HI; auto.
    + destruct (negb (can_recv s)); [exact I|]. cbn [recv_frame].
      destruct (s_local s) as [p|p|] eqn:El; [|destruct ae|]; try (apply InvL_result; exact HI).
      unfold InvL in *. rewrite El in HI. cbn. rewrite HI. reflexivity.
  - apply (returns_impl _ _ _ (step_frame s l)). intros s' o _ (_ & _ & FL & _).
    destruct (FL Eg) as (Er & Hu). unfold InvL. rewrite Hu, Er. exact HI.
Qed.

Definition head_last (h : list gframe) : N := match h with (l, _, _) :: _ => l | [] => MAX_ID end.

Fixpoint descE (h : list gframe) : Prop :=
  match h with
  | [] => True
  | (l, _, _) :: t => l <= head_last t /\ descE t
  end.

Definition InvE (s : st) (h : list gframe) : Prop :=
  (forall l r d, c_error s = Some (l, r, d) -> hd_error h = Some (l, r, d)) /\ s_max s = head_last h /\ descE h.

Theorem stepE s h l : InvE s h -> returns (fun s' o _ => InvE s' (updE h o)) (cstep s l).
Proof.
  intros HI. destruct (grpE l) eqn:Eg.
  - destruct HI as (A & B & C).
    destruct l as [| | | | | | | | | | | | | | | |[| | |last reason debug| | |]|]; try discriminate; cbn [cstep].
    + destruct (c_state s); try exact I.
      destruct (match c_error s with Some (_, r, d) => (d, r) | None => ([], NO_ERROR) end).
      unfold InvE. cbn. repeat split; auto. discriminate.
    + destruct (negb (can_recv s)); [exact I|]. cbn [recv_frame].
      destruct (s_max s <? last) eqn:E.
      * pose proof (handle_result_spec s [] (RGoAway PROTOCOL_ERROR [] ILibrary)) as H.
        destruct (handle_result _ _ _) as [s' o' fl| |]; [|exact I..].
        destruct H as ((x & -> & Hx) & R & _). apply result_state_fields in R as (_ & _ & _ & _ & A5 & A6 & _).
        cbn [returns]. unfold InvE. rewrite updE_neutral, A5, A6 by exact Hx. auto.
      * unfold InvE. cbn. repeat split; auto. rewrite <- B. lia.
  - apply (returns_impl _ _ _ (step_frame s l)). intros s' o _ (_ & _ & _ & FE & _).
    destruct (FE Eg) as (E1 & E2 & Hu). unfold InvE. rewrite Hu, E1, E2. exact HI.
Qed.

Definition InvU (s : st) (h : hU) : Prop :=
  match p_user s with
  | None => hu_ok h = 0 /\ hu_ping h = 0 /\ hu_ack h = 0 /\ hu_pong h = 0
  | Some UEmpty => hu_ok h = hu_ping h /\ hu_ping h = hu_ack h /\ hu_ack h = hu_pong h
  | Some UPendingPing => hu_ok h = hu_ping h + 1 /\ hu_ping h = hu_ack h /\ hu_ack h = hu_pong h
  | Some UPendingPong => hu_ok h = hu_ping h /\ hu_ping h = hu_ack h + 1 /\ hu_ack h = hu_pong h
  | Some UReceivedPong => hu_ok h = hu_ping h /\ hu_ping h = hu_ack h /\ hu_ack h = hu_pong h + 1
  | Some UClosed => hu_pong h <= hu_ack h /\ hu_ack h <= hu_ping h /\ hu_ping h <= hu_ok h /\ hu_ok h <= hu_pong h + 1
  end.

(* the shutdown ping (InvG: the only payload the ping slot holds) is not counted as a user ping *)
Theorem stepU s hg h l : InvG s hg -> InvU s h -> returns (fun s' o _ => InvU s' (updU h o)) (cstep s l).
Proof.
  intros HG HI. destruct (grpU l) eqn:Eg.
  - unfold InvU in *.
    destruct l as [| | | | | | | | | | | | |c| | |[| |ack pl| | | |]|]; try discriminate; cbn [cstep].
    (* LTakeUserPings, LUserSendPing, LUserPollPong, LDropConn; then LPollPing and LRecv (InPing ack pl) *)
    1-4: destruct (p_user s) as [[| | | |]|] eqn:Eu; cbn; rewrite ?Eu; auto; lia.
    + destruct (negb (in_poll_ready s)); [exact I|].
      destruct (p_ping s) as [[pl [|]]|] eqn:Epp.
      * exact HI.
      * destruct (G7 _ _ HG pl false Epp) as (-> & _).
        destruct c; [|exact HI..]. cbn [returns updU fold_left outU]. rewrite N.eqb_sym, user_ne_shutdown. exact HI.
      * destruct (p_user s) as [[| | | |]|] eqn:Eu; try destruct c; cbn; rewrite ?Eu, ?N.eqb_refl; auto; cbn; lia.
    + destruct (negb (can_recv s)); [exact I|]. cbn [recv_frame].
      destruct ack; [|destruct (p_pong s); [exact I|exact HI]].
      apply recv_pong_returns. intros _. split; [|exact HI].
      unfold user_receive_pong. destruct (p_user s) as [[| | | |]|] eqn:Eu; try destruct (pl =? PING_USER); cbn; rewrite ?Eu; auto; lia.
  - apply (returns_impl _ _ _ (step_frame s l)). intros s' o _ (_ & _ & _ & _ & FU & _).
    destruct (FU Eg) as (E1 & Hu). unfold InvU. rewrite Hu, E1. exact HI.
Qed.

Record hist := mkHist { hG_ : hG; hS_ : hS; hP_ : hP; hL_ : hL; hE_ : list gframe; hU_ : hU }.

Definition upd (h : hist) (l : label) (o : list out) : hist :=
  mkHist (updG (hG_ h) o) (updS (hS_ h) l o) (updP (hP_ h) l o) (updL (hL_ h) o) (updE (hE_ h) o) (updU (hU_ h) o).

Definition hist0 (p0 : sparams) : hist := mkHist hG0 hS0 hP0 (hL0 p0) [] hU0.

Fixpoint upd_trace (h : hist) (tr : list (label * list out * flow)) : hist :=
  match tr with
  | [] => h
  | (l, o, _) :: t => upd_trace (upd h l o) t
  end.

Definition Inv (s : st) (h : hist) : Prop :=
  InvG s (hG_ h) /\ InvS s (hS_ h) /\ InvP s (hP_ h) /\ InvL s (hL_ h) /\ InvE s (hE_ h) /\ InvU s (hU_ h).

Lemma Inv_init p0 : Inv (init p0) (hist0 p0).
Proof.
  split; [|split; [left; cbn; auto|unfold InvE; cbn; repeat split; intros; discriminate]].
  constructor; cbn; try discriminate; try (intros; discriminate); auto. unfold MAX_ID. lia.
Qed.

Theorem step_inv s h l s' o fl : Inv s h -> cstep s l = SOk s' o fl -> Inv s' (upd h l o).
Proof.
  intros (A & B & C & D & E & F) H.
  pose proof (stepG s _ l A) as A'. pose proof (stepS s _ l B) as B'. pose proof (stepP s _ l C) as C'.
  pose proof (stepL s _ l D) as D'. pose proof (stepE s _ l E) as E'. pose proof (stepU s _ _ l A F) as F'.
  rewrite H in *. exact (conj A' (conj B' (conj C' (conj D' (conj E' F'))))).
Qed.

(* SPanic: an assert!/assert_eq!/debug_assert_eq! of settings.rs, ping_pong.rs, go_away.rs, connection.rs or Recv::go_away fires *)
Theorem run_inv ls : forall s h, Inv s h ->
  match crun s ls with inl (s', tr) => Inv s' (upd_trace h tr) | inr (_, SPanic _) => False | inr _ => True end.
Proof.
  induction ls as [|l ls IH]; intros s h HI; cbn [crun]; [exact HI|].
  destruct (cstep s l) as [s1 o1 f1|n|n] eqn:E.
  - specialize (IH s1 _ (step_inv _ _ _ _ _ _ HI E)).
    destruct (crun s1 ls) as [[s2 tr2]|[k r]]; exact IH.
  - exact I.
  - destruct HI as (A & _). pose proof (stepG s _ l A) as H. rewrite E in H. exact H.
Qed.

Lemma run_init p0 ls s tr : crun (init p0) ls = inl (s, tr) -> Inv s (upd_trace (hist0 p0) tr).
Proof. intros H. pose proof (run_inv ls _ _ (Inv_init p0)) as HI. rewrite H in HI. exact HI. Qed.

(* Every SETTINGS and every PING taken from the codec is answered exactly once, in order; at most one acknowledgement of each
   kind is owed (the `option`): a PING's exactly while `pending_pong` is set, a SETTINGS frame's while `remote` is set and
   apply_remote_settings has not failed (after a failure the ACK is out, `remote` stays set and the connection is dead).
   #taken SETTINGS = #ACKs emitted + (1 if one is owed); taken PINGs = [owed one] ++ answered ones, newest first, payload by payload. *)
Definition owedS (s : st) (h : hS) : N :=
  match s_remote s with Some _ => if hs_fail h =? 0 then 1 else 0 | None => 0 end.

Theorem C14_ack_exactly_once p0 ls s tr :
  crun (init p0) ls = inl (s, tr) ->
  let h := upd_trace (hist0 p0) tr in
  N.of_nat (length (hs_taken (hS_ h))) = hs_acks (hS_ h) + owedS s (hS_ h) /\
  hp_taken (hP_ h) = opt_list (p_pong s) ++ map fst (hp_answered (hP_ h)) /\
  (can_recv s = true -> s_remote s = None /\ p_pong s = None).
Proof.
  intros H h. destruct (run_init _ _ _ _ H) as (_ & HS & HP & _). fold h in HS, HP.
  split; [|split].
  - unfold owedS. destruct HS as [(F0 & T & A)|(F1 & D & p & Ep & T & A)].
    + rewrite T, A, F0. change (0 =? 0) with true. destruct (s_remote s); cbn [opt_list app length]; lia.
    + rewrite T, A, F1, Ep. change (1 =? 0) with false. cbn [length]. lia.
  - exact HP.
  - intros Hc. apply can_recv_spec in Hc as (_ & A & _ & B & _). auto.
Qed.

Lemma handle_go_away_fresh s h o reason d i :
  InvG s h -> g_close_now s = false -> reason <> NO_ERROR ->
  handle_go_away s o reason d i =
  SOk (set_ga s true (Some (r_last s, reason)) (g_user s) (Some (r_last s, reason, d))) (o ++ [OStreamsError]) FLoop.
Proof.
  intros HI Hc Hr. unfold handle_go_away.
  assert (Hg : forall gl gr, g_going s = Some (gl, gr) -> gr <> reason).
  { intros gl gr Eg. destruct (G3 _ _ HI Hc gl gr Eg) as (-> & _). auto. }
  replace (match g_going s with Some (_, r) => r =? reason | None => false end) with false.
  2: { destruct (g_going s) as [[gl gr]|]; [|reflexivity]. symmetry. apply N.eqb_neq. eauto. }
  pose proof (ga_go_away_now_spec s (r_last s) reason d) as H.
  destruct (ga_go_away_now _ _) as [s'|]; cbn [lift].
  - destruct H as [(_ & Eg)|(-> & _)]; [destruct (Hg _ _ Eg); reflexivity|reflexivity].
  - destruct H as (gl & gr & Eg & Hlt). pose proof (G6 _ _ HI gl gr Eg). lia.
Qed.

(* a SETTINGS ACK while local is ToSend or Synced: connection error PROTOCOL_ERROR *)
Theorem C14_stray_ack s h ae :
  InvG s h -> can_recv s = true -> (forall p, s_local s <> LWaitingAck p) ->
  cstep s (LRecv (InSettingsAck ae)) =
  SOk (set_ga s true (Some (r_last s, PROTOCOL_ERROR)) (g_user s) (Some (r_last s, PROTOCOL_ERROR, []))) [OStreamsError] FLoop.
Proof.
  intros HI Hc Hl. cbn [cstep]. rewrite Hc. cbn [negb recv_frame].
  apply can_recv_spec in Hc as (Hpr & _). apply in_poll_ready_spec in Hpr as (_ & _ & Hcn).
  destruct (s_local s) as [p|p|] eqn:El; [|destruct (Hl p); reflexivity|]; cbn [handle_result];
    rewrite (handle_go_away_fresh _ h); auto; discriminate.
Qed.

Lemma outS_acks o : forall h,
  hs_acks h <= hs_acks (fold_left outS o h) /\ (In (OFrame WSettingsAck) o -> hs_acks h < hs_acks (fold_left outS o h)).
Proof.
  induction o as [|e o IH]; intros h; cbn [fold_left In]; [split; [lia|intros []]|].
  destruct (IH (outS h e)) as (A & B).
  assert (hs_acks h <= hs_acks (outS h e)) by (destruct e as [[]| | | | | | | | | | | | | | | |]; cbn; lia).
  split; [lia|]. intros [->|Hin]; [cbn in A |- *; lia|]. specialize (B Hin). lia.
Qed.

(* the label that emits the SETTINGS ACK is the label that applies the settings: any step whose outputs contain the ACK is a
   step of Settings::poll_send on the pending frame, and its outputs are exactly [ACK; apply p] (or [ACK; apply failed; ...]) *)
Theorem C14_remote_apply_at_ack_step s l s' o fl :
  cstep s l = SOk s' o fl -> In (OFrame WSettingsAck) o ->
  exists c ae p, l = LSettingsAck c ae /\ s_remote s = Some p /\
    ((ae = None /\ o = [OFrame WSettingsAck; OApplyRemote p (negb (s_initial s))] /\ s_remote s' = None) \/
     (exists r x, ae = Some r /\ o = [OFrame WSettingsAck; OApplyRemoteFailed] ++ x /\ forallb neutral x = true /\ dead s')).
Proof.
  intros H Hin. destruct (grpS l) eqn:Eg.
  - destruct l as [| | | | | | | | | | | | | |c ae| |[p| | | | | |]|]; try discriminate; cbn [cstep] in H.
    + destruct (negb (in_poll_ready s)); [discriminate|].
      destruct (s_remote s) as [p|] eqn:Er; [destruct c|]; [|injection H as _ <- _; destruct Hin..].
      exists Ready, ae, p. split; [reflexivity|]. split; [reflexivity|].
      destruct ae as [r|].
      * right. cbn [handle_result] in H. set (s1 := set_settings _ _ _ _) in H.
        destruct (handle_go_away_spec s1 [OFrame WSettingsAck; OApplyRemoteFailed] r [] ILibrary) as (P & Hd).
        rewrite H in P, Hd. destruct P as ((x & -> & Hx) & _). exists r, x. auto.
      * left. injection H as <- <- <-. auto.
    + destruct (negb (can_recv s)); [discriminate|]. cbn [recv_frame] in H.
      destruct (s_remote s); [discriminate|]. injection H as <- <- <-. destruct Hin.
  - pose proof (step_frame s l) as F. rewrite H in F. destruct F as (FS & _). destruct (FS Eg) as (_ & Hu).
    destruct (outS_acks o (labS hS0 l)) as (_ & A). specialize (A Hin). unfold updS in Hu. rewrite Hu in A. destruct (N.nlt_0_r _ A).
Qed.

Theorem C14_send_settings_accepted s p :
  s_local s = LSynced -> cstep s (LSendSettings p) = SOk (set_settings s (LToSend p) (s_remote s) (s_initial s)) [OApi AOk] FNext.
Proof. intros H. cbn [cstep]. rewrite H. reflexivity. Qed.

Theorem C14_user_closed_absorbing s l s' o fl :
  p_user s = Some UClosed -> cstep s l = SOk s' o fl ->
  p_user s' = Some UClosed /\
  (l = LUserSendPing -> o = [OApi AErrBrokenPipe]) /\ (l = LUserPollPong -> o = [OReg WPongTask; OApi AErrBrokenPipe]).
Proof.
  intros E H. split.
  - assert (P : returns (fun s' _ _ => p_user s' = Some UClosed) (cstep s l)); [|rewrite H in P; exact P].
    clear H. destruct (grpU l) eqn:Eg.
    + destruct l as [| | | | | | | | | | | | |c| | |[| |ack pl| | | |]|]; try discriminate; cbn [cstep]; rewrite ?E.
      (* LTakeUserPings, LUserSendPing, LUserPollPong, LDropConn; then LPollPing and LRecv (InPing ack pl) *)
      1-4: cbn; auto.
      * destruct (negb (in_poll_ready s)); [exact I|]. destruct (p_ping s) as [[pl [|]]|]; try destruct c; cbn; auto.
      * destruct (negb (can_recv s)); [exact I|]. cbn [recv_frame].
        destruct ack; [|destruct (p_pong s); [exact I|exact E]].
        apply recv_pong_returns. intros _. unfold user_receive_pong. rewrite E. split; reflexivity.
    + apply (returns_impl _ _ _ (step_frame s l)). intros s1 o1 _ (_ & _ & _ & _ & FU & _).
      destruct (FU Eg) as (E1 & _). exact (eq_trans E1 E).
  - split; intros ->; cbn [cstep] in H; rewrite E in H; congruence.
Qed.

(* the lock-free cell at the granularity of its atomic operations: whenever the connection task sits between its load (which
   saw PENDING_PING) and its store, the cell still holds PENDING_PING, whatever the user's handle did in between: the store
   never overwrites a RECEIVED_PONG, an EMPTY or a CLOSED, and load+store act as one atomic step *)
Definition FInv (f : fcell) : Prop := f_mid f = true -> f_cell f = UPendingPing.

Lemma fstep_inv f o f' : FInv f -> fstep f o = Some f' -> FInv f'.
Proof.
  unfold FInv. destruct f as [c m]. destruct o; cbn [fstep f_mid f_cell]; destruct m; intros HI [= <-]; cbn;
    try discriminate; auto.
  - destruct c; cbn; auto; discriminate.
  - intros _. rewrite (HI eq_refl). reflexivity.
  - intros _. rewrite (HI eq_refl). reflexivity.
Qed.

Theorem C14_user_cell_interleavings os : forall f f', FInv f -> frun f os = Some f' -> FInv f'.
Proof.
  induction os as [|o os IH]; intros f f' HI H; cbn [frun] in H.
  - injection H as <-. exact HI.
  - destruct (fstep f o) as [f1|] eqn:E; [|discriminate]. eapply IH; [|exact H]. eapply fstep_inv; eauto.
Qed.

(* the user's handle moves the cell out of EMPTY and out of RECEIVED_PONG only, wherever the connection task stands *)
Theorem user_ops_keep_cell c m us :
  c <> UEmpty -> c <> UReceivedPong ->
  forallb (fun o => match o with FUserSend | FUserPoll => true | _ => false end) us = true ->
  frun (mkF c m) us = Some (mkF c m).
Proof.
  intros H1 H2. induction us as [|o us IH]; cbn [forallb frun]; [reflexivity|].
  intros H. apply andb_true_iff in H as (A & B).
  destruct o; try discriminate; destruct c; try congruence; cbn; apply IH; exact B.
Qed.

Theorem C14_user_cell_atomic us :
  forallb (fun o => match o with FUserSend | FUserPoll => true | _ => false end) us = true ->
  frun (mkF UPendingPing true) us = Some (mkF UPendingPing true).
Proof. apply user_ops_keep_cell; discriminate. Qed.

(* poll_go_away returned Ready(Some(Ok(NO_ERROR))) and poll2 goes on: nothing is to be closed, so poll_ready is reached *)
Lemma after_go_away_next s o reason s' o' :
  after_go_away s o reason = SOk s' o' FNext -> is_open s = true -> g_pending s = None -> in_poll_ready s' = true.
Proof.
  unfold after_go_away, should_close_now, in_poll_ready. intros H Eo Ep. rewrite Ep in H. destruct (g_close_now s) eqn:Ec.
  - destruct (g_user s); destruct (handle_result_not_next _ _ _ _ _ H).
  - destruct (reason =? NO_ERROR); [|discriminate]. injection H as <- _. rewrite Eo, Ep, Ec. reflexivity.
Qed.

(* the Stuck guards of the model are what the preceding calls of the same loop iteration of poll2 establish *)
Theorem poll2_order s h c1 c2 c3 c4 ae c5 s1 o1 s2 o2 s3 o3 s4 o4 s5 o5 :
  InvG s h ->
  cstep s (LPollGoAway c1) = SOk s1 o1 FNext ->
  in_poll_ready s1 = true /\
  (cstep s1 (LPollPong c2) = SOk s2 o2 FNext ->
   in_poll_ready s2 = true /\ p_pong s2 = None /\
   (cstep s2 (LPollPing c3) = SOk s3 o3 FNext ->
    in_poll_ready s3 = true /\ p_pong s3 = None /\ (forall pl, p_ping s3 <> Some (pl, false)) /\
    (cstep s3 (LSettingsAck c4 ae) = SOk s4 o4 FNext ->
     in_poll_ready s4 = true /\ p_pong s4 = None /\ (forall pl, p_ping s4 <> Some (pl, false)) /\ s_remote s4 = None /\
     (cstep s4 (LSettingsLocal c5) = SOk s5 o5 FNext -> can_recv s5 = true)))).
Proof.
  intros HI H1.
  assert (R1 : in_poll_ready s1 = true).
  { cbn [cstep] in H1. destruct (is_open s) eqn:Eo; [|discriminate]. cbn [negb] in H1.
    destruct (g_pending s) as [[[l r] d]|] eqn:Ep.
    - destruct c1; try discriminate. apply after_go_away_next in H1; [exact H1|exact Eo|reflexivity].
    - destruct (g_close_now s) eqn:Ec.
      + destruct (g_going s) as [[gl gr]|] eqn:Eg; [|destruct (G2 _ _ HI Ec Eg)].
        apply after_go_away_next in H1; assumption.
      + injection H1 as <- _. unfold in_poll_ready. rewrite Eo, Ep, Ec. reflexivity. }
  split; [exact R1|]. intros H2. cbn [cstep] in H2. rewrite R1 in H2. cbn [negb] in H2.
  assert (R2 : in_poll_ready s2 = true /\ p_pong s2 = None).
  { destruct (p_pong s1) eqn:Ep; [destruct c2; try discriminate|]; inversion H2; subst; auto. }
  destruct R2 as (R2 & P2). repeat (split; [assumption|]). intros H3.
  cbn [cstep] in H3. rewrite R2 in H3. cbn [negb] in H3.
  assert (R3 : in_poll_ready s3 = true /\ p_pong s3 = None /\ (forall pl, p_ping s3 <> Some (pl, false))).
  { destruct (p_ping s2) as [[pl [|]]|] eqn:Epp; [|destruct c3; try discriminate|
      destruct (p_user s2) as [[| | | |]|]; try destruct c3; try discriminate];
      inversion H3; subst; cbn [p_ping set_ping]; rewrite ?Epp; repeat split; auto; discriminate. }
  destruct R3 as (R3 & P3 & Q3). repeat (split; [assumption|]). intros H4.
  cbn [cstep] in H4. rewrite R3 in H4. cbn [negb] in H4.
  assert (R4 : in_poll_ready s4 = true /\ p_pong s4 = None /\ (forall pl, p_ping s4 <> Some (pl, false)) /\ s_remote s4 = None).
  { destruct (s_remote s3) as [p|] eqn:Er; [destruct c4; try discriminate; destruct ae as [r|]|].
    - destruct (handle_result_not_next _ _ _ _ _ H4).
    - inversion H4; subst. auto.
    - inversion H4; subst. auto. }
  destruct R4 as (R4 & P4 & Q4 & S4). repeat (split; [assumption|]). intros H5.
  cbn [cstep] in H5. rewrite R4, S4 in H5. cbn [negb] in H5.
  assert (L5 : in_poll_ready s5 = true /\ p_pong s5 = None /\ p_ping s5 = p_ping s4 /\ s_remote s5 = None /\
               forall p, s_local s5 <> LToSend p).
  { destruct (s_local s4) as [p|p|] eqn:El; [destruct c5; try discriminate|..]; inversion H5; subst;
      cbn [s_local set_settings]; rewrite ?El; repeat split; auto; discriminate. }
  destruct L5 as (R5 & P5 & Q5 & S5 & L5). unfold can_recv. rewrite R5, P5, Q5, S5. cbn [andb].
  destruct (p_ping s4) as [[pl [|]]|]; [|destruct (Q4 pl); reflexivity|];
    (destruct (s_local s5) as [p| |]; [destruct (L5 p)|..]; reflexivity).
Qed.

Theorem C15_no_assert p0 ls :
  match crun (init p0) ls with inr (_, SPanic _) => False | _ => True end.
Proof.
  pose proof (run_inv ls _ _ (Inv_init p0)) as H. destruct (crun (init p0) ls) as [[s tr]|[k [s o f|n|n]]]; try exact I. exact H.
Qed.

(* Connection::take_error: the reason and debug data of the peer's GOAWAY unless that is NO_ERROR, else our reason *)
Definition conn_result (ours : N) (i : initiator) (e : option gframe) : connres :=
  let own := if ours =? NO_ERROR then CROk else CRGoAway [] ours i in
  match e with
  | Some (_, r, d) => if r =? NO_ERROR then own else CRGoAway d r IRemote
  | None => own
  end.

Theorem C15_graceful_start s h :
  InvG s h -> g_going s = None ->
  cstep s LGraceful =
  SOk (set_ping (set_ga (set_ids s (r_last s) MAX_ID (s_max s)) (g_close_now s) (Some (MAX_ID, NO_ERROR)) (g_user s)
                        (Some (MAX_ID, NO_ERROR, [])))
                (Some (PING_SHUTDOWN, false)) (p_pong s) (p_user s))
      [ORecvMax MAX_ID] FNext.
Proof.
  intros HI Eg. pose proof (stepG s h LGraceful HI) as K. cbn [cstep] in K |- *. rewrite Eg in *.
  pose proof (conn_go_away_spec s MAX_ID NO_ERROR) as H. destruct (conn_go_away _ _ _); [|destruct K].
  destruct H as (_ & -> & _). cbn [p_ping set_ga set_ids p_pong p_user] in *. destruct (p_ping s); [destruct K|reflexivity].
Qed.

Theorem C15_shutdown_pong s h b :
  InvG s h -> can_recv s = true -> p_ping s = Some (PING_SHUTDOWN, b) ->
  cstep s (LRecv (InPing true PING_SHUTDOWN)) =
  SOk (set_ga (set_ids (set_ping s None None (p_user s)) (r_last s) (r_last s) (s_max s)) false (Some (r_last s, NO_ERROR))
              (g_user s) (Some (r_last s, NO_ERROR, [])))
      [ORecvMax (r_last s)] FNext.
Proof.
  intros HI Hc Ep. pose proof (stepG s h (LRecv (InPing true PING_SHUTDOWN)) HI) as K.
  cbn [cstep] in K |- *. rewrite Hc in *. cbn [negb recv_frame] in *.
  apply can_recv_spec in Hc as (Hpr & Hpong & _). apply in_poll_ready_spec in Hpr as (_ & _ & Hcn).
  rewrite Hpong, Ep, N.eqb_refl in *. cbn [negb g_going set_ping r_last] in *. destruct (g_going s); [|destruct K].
  pose proof (conn_go_away_spec (set_ping s None None (p_user s)) (r_last s) NO_ERROR) as H.
  destruct (conn_go_away _ _ _); [|destruct K]. destruct H as (_ & -> & _).
  cbn [lift g_close_now set_ids set_ping g_user r_last s_max]. rewrite Hcn. reflexivity.
Qed.

(* close_now is set and nothing is left to write, or the pending GOAWAY is written at this call: the connection goes to
   Closing, with NO_ERROR if the application asked for the close (go_away_from_user) and with the GOAWAY's reason otherwise *)
Theorem close_now_closes s h l r :
  InvG s h -> is_open s = true -> g_close_now s = true -> g_going s = Some (l, r) ->
  exists o, cstep s (LPollGoAway Ready) =
            SOk (set_conn (set_ga s true (Some (l, r)) (g_user s) None) (CClosing (if g_user s then NO_ERROR else r) ILibrary)
                          (c_error s)) o FLoop /\
            (o = [] \/ exists d, g_pending s = Some (l, r, d) /\ o = [OFrame (WGoAway l r d)]).
Proof.
  intros HI Ho Ec Eg. cbn [cstep]. rewrite Ho. cbn [negb].
  destruct (g_pending s) as [[[pl pr] pd]|] eqn:Ep.
  - pose proof (G1 _ _ HI pl pr pd Ep) as E. rewrite Eg in E. inversion E; subst pl pr.
    unfold after_go_away, should_close_now. cbn [g_pending set_ga g_close_now g_user]. rewrite Ec, Eg.
    eexists. split; [|right; exists pd; auto].
    destruct (g_user s); cbn [handle_result]; [reflexivity|].
    unfold handle_go_away. cbn [g_going set_ga]. rewrite N.eqb_refl. reflexivity.
  - rewrite Ec, Eg. unfold after_go_away, should_close_now. rewrite Ep, Ec.
    exists []. split; [|left; reflexivity].
    replace (set_ga s true (Some (l, r)) (g_user s) None) with s by (rewrite <- Ec, <- Eg, <- Ep; destruct s; reflexivity).
    destruct (g_user s); cbn [handle_result]; [reflexivity|].
    unfold handle_go_away. rewrite Eg, N.eqb_refl. reflexivity.
Qed.

Definition frames_of (tr : list (label * list out * flow)) : list wframe :=
  flat_map (fun x => flat_map (fun o => match o with OFrame f => [f] | _ => [] end) (snd (fst x))) tr.

Definition results_of (tr : list (label * list out * flow)) : list connres :=
  flat_map (fun x => flat_map (fun o => match o with OConnResult r => [r] | _ => [] end) (snd (fst x))) tr.

Definition no_params : sparams := mkSP None None None None None None None.
Definition some_params : sparams := mkSP None None (Some 100) (Some 1000) (Some 16384) None None.

(* a server: takes the peer's SETTINGS while its acknowledgement is blocked once, a PING, a request on stream 1; a user ping
   round trip; graceful shutdown with the write side blocked once; request 3 arrives before the shutdown PONG; the final GOAWAY
   names stream 3; idle -> GOAWAY already sent with that id -> Closing -> Closed -> Ok *)
Definition demo_labels : list label :=
  [ LPollGoAway Ready; LPollPong Ready; LPollPing Ready; LSettingsAck Ready None; LSettingsLocal Ready;
    LRecv (InSettings some_params);
    LPollGoAway Ready; LPollPong Ready; LPollPing Ready; LSettingsAck NotReady None;
    LPollGoAway Ready; LPollPong Ready; LPollPing Ready; LSettingsAck Ready None; LSettingsLocal Ready;
    LRecv (InPing false 77);
    LPollGoAway Ready; LPollPong NotReady;
    LPollGoAway Ready; LPollPong Ready; LPollPing Ready; LSettingsAck Ready None; LSettingsLocal Ready;
    LRecv (InHeaders 1 true);
    LTakeUserPings; LUserSendPing; LUserSendPing;
    LPollGoAway Ready; LPollPong Ready; LPollPing Ready; LSettingsAck Ready None; LSettingsLocal Ready;
    LRecv (InPing true PING_USER); LUserPollPong; LUserPollPong;
    LGraceful; LGraceful;
    LPollGoAway NotReady;
    LPollGoAway Ready; LPollPong Ready; LPollPing Ready; LSettingsAck Ready None; LSettingsLocal Ready;
    LRecv (InHeaders 3 true);
    LPollGoAway Ready; LPollPong Ready; LPollPing Ready; LSettingsAck Ready None; LSettingsLocal Ready;
    LRecv (InPing true PING_SHUTDOWN);
    LPollGoAway Ready; LPollPong Ready; LPollPing Ready; LSettingsAck Ready None; LSettingsLocal Ready;
    LRecv (InHeaders 5 false);
    LPollGoAway Ready; LPollPong Ready; LPollPing Ready; LSettingsAck Ready None; LSettingsLocal Ready;
    LIdle false;
    LPollGoAway Ready; LShutdown Ready; LTakeError ].

Example demo_control :
  match crun (init no_params) demo_labels with
  | inl (s, tr) =>
    frames_of tr = [ WSettingsAck; WPing true 77; WPing false PING_USER; WGoAway MAX_ID NO_ERROR []; WPing false PING_SHUTDOWN;
                     WGoAway 3 NO_ERROR [] ] /\
    results_of tr = [CROk] /\ c_state s = CClosed NO_ERROR ILibrary /\ r_last s = 3 /\ r_max s = 3
  | inr _ => False
  end.
Proof. vm_compute. repeat split; reflexivity. Qed.

(* the peer's GOAWAY with an error code and debug data is what the connection reports; a later GOAWAY with a larger id is a
   connection error PROTOCOL_ERROR (the SETTINGS ACK before them answers the handshake's SETTINGS) *)
Definition demo_labels2 : list label :=
  [ LPollGoAway Ready; LPollPong Ready; LPollPing Ready; LSettingsAck Ready None; LSettingsLocal Ready;
    LRecv (InSettingsAck None);
    LPollGoAway Ready; LPollPong Ready; LPollPing Ready; LSettingsAck Ready None; LSettingsLocal Ready;
    LRecv (InGoAway 7 2 [100; 98; 103]);
    LPollGoAway Ready; LPollPong Ready; LPollPing Ready; LSettingsAck Ready None; LSettingsLocal Ready;
    LRecv (InGoAway 9 0 []);
    LPollGoAway Ready; LShutdown Ready; LTakeError ].

Example demo_control2 :
  match crun (init no_params) demo_labels2 with
  | inl (s, tr) =>
    frames_of tr = [WGoAway 0 PROTOCOL_ERROR []] /\ results_of tr = [CRGoAway [100; 98; 103] 2 IRemote] /\ s_max s = 7
  | inr _ => False
  end.
Proof. vm_compute. repeat split; reflexivity. Qed.

(* the second SETTINGS ACK answers nothing: connection error PROTOCOL_ERROR *)
Example demo_stray_ack :
  match crun (init no_params) [LPollGoAway Ready; LPollPong Ready; LPollPing Ready; LSettingsAck Ready None; LSettingsLocal Ready;
                               LRecv (InSettingsAck None); LPollGoAway Ready; LPollPong Ready; LPollPing Ready;
                               LSettingsAck Ready None; LSettingsLocal Ready; LRecv (InSettingsAck None);
                               LPollGoAway Ready; LShutdown Ready; LTakeError] with
  | inl (s, tr) => frames_of tr = [WGoAway 0 PROTOCOL_ERROR []] /\ results_of tr = [CRGoAway [] PROTOCOL_ERROR ILibrary]
  | inr _ => False
  end.
Proof. vm_compute. repeat split; reflexivity. Qed.

(* taking a frame while an acknowledgement is owed is impossible (Stuck), and the Rust assert behind it would fire otherwise *)
Example demo_order :
  crun (init no_params) [LPollGoAway Ready; LPollPong Ready; LPollPing Ready; LSettingsAck Ready None; LSettingsLocal Ready;
                         LRecv (InPing false 5); LRecv (InPing false 6)] = inr (6, SStuck 39).
Proof. vm_compute. reflexivity. Qed.

Example demo_user_cell :
  frun (mkF UEmpty false) [FUserSend; FLoad; FUserSend; FUserPoll; FStore; FReceivePong; FUserPoll; FDrop; FUserSend]
  = Some (mkF UClosed false).
Proof. vm_compute. reflexivity. Qed.

(* known finding KF-C15-1 (should_close_on_idle's `!= StreamId::MAX` test) on a complete run: request 2^31-1, graceful
   shutdown, PONG, final GOAWAY(2^31-1), all streams done: still Pending *)
Example demo_known_refuted :
  match crun (init no_params)
             [ LPollGoAway Ready; LPollPong Ready; LPollPing Ready; LSettingsAck Ready None; LSettingsLocal Ready;
               LRecv (InHeaders MAX_ID true); LGraceful;
               LPollGoAway Ready; LPollPong Ready; LPollPing Ready; LSettingsAck Ready None; LSettingsLocal Ready;
               LRecv (InPing true PING_SHUTDOWN);
               LPollGoAway Ready; LPollPong Ready; LPollPing Ready; LSettingsAck Ready None; LSettingsLocal Ready;
               LIdle false ] with
  | inl (s, tr) =>
    frames_of tr = [WGoAway MAX_ID NO_ERROR []; WPing false PING_SHUTDOWN; WGoAway MAX_ID NO_ERROR []] /\
    c_state s = COpen /\ g_close_now s = false /\ snd (last tr (LIdle false, [], FNext)) = FPending
  | inr _ => False
  end.
Proof. vm_compute. repeat split; reflexivity. Qed.
