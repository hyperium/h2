(* C02, one step: the simulation [R] between a send-flow state and the ledger of the RFC 9113 6.9
   accountant (Ref/Accountant.v); the wire events of every label that reports no connection error are
   accepted by the accountant and keep the simulation. *)
From H2V Require Import Base.Tac Model.SendFlow Ref.Accountant
     Proofs.SendFlowLists Proofs.SendFlowView Proofs.SendFlowInv.
Local Open Scope Z_scope.

Definition data_evs (outs : list out) : list wev :=
  flat_map (fun o => match o with OData k len => [WData k len] | _ => [] end) outs.

(* wire-level events of one label *)
Definition wevs (l : label) (outs : list out) : list wev :=
  match l with
  | LNew key _ => [WOpen key]
  | LRecvStreamWU key _ inc => [WGrant key inc]
  | LRecvConnWU inc _ => [WGrantConn inc]
  | LApplySettings new _ _ => [WInit new]
  | _ => data_evs outs
  end.

(* per-record part of the simulation, on the (key, window, dead flag) of a record *)
Definition rs_ok (a : acct) (p : N * (Z * bool)) : Prop :=
  snd (snd p) = false ->
  exists c sn, a_find (fst p) (a_streams a) = Some (c, sn) /\ fst (snd p) <= c - sn.

Definition R (st : fstate) (a : acct) : Prop :=
  c_win st <= a_credit a - a_sent a /\ c_init st = a_init a /\ Forall (rs_ok a) (map sproj (c_strs st)).

Definition events_ok (a : acct) (es : list wev) (st' : fstate) : Prop :=
  exists a', acct_run a es = Some a' /\ R st' a'.

Lemma Forall_rs_weaken a a' v :
  (forall p, rs_ok a p -> rs_ok a' p) -> Forall (rs_ok a) v -> Forall (rs_ok a') v.
Proof. intros H. apply Forall_impl, H. Qed.

Lemma sproj_upd_other s' l :
  map sproj (upd_s s' l) =
  map (fun p => if N.eqb (fst p) (s_id s') then sproj s' else p) (map sproj l)
  \/ True.
Proof. right. exact I. Qed.

Lemma data_evs_quiet outs : quiet outs -> data_evs outs = [].
Proof.
  induction 1 as [|x outs Hx _ IH]; [reflexivity|]. destruct x; try exact IH. destruct Hx.
Qed.

Lemma a_find_upd key v v0 l k :
  a_find key l = Some v0 -> a_find k (a_upd key v l) = if N.eqb key k then Some v else a_find k l.
Proof.
  induction l as [|[x y] l IH]; cbn [a_find a_upd]; [discriminate|].
  destruct (N.eqb_spec x key) as [->|Hne]; cbn [a_find]; [now destruct (N.eqb key k)|].
  intros H. destruct (N.eqb_spec x k) as [->|_]; [|exact (IH H)].
  destruct (N.eqb_spec key k); [congruence|reflexivity].
Qed.

Lemma a_find_map delta key l :
  a_find key (map (fun kv : N * (Z * Z) => (fst kv, (fst (snd kv) + delta, snd (snd kv)))) l)
  = match a_find key l with Some (c, s) => Some (c + delta, s) | None => None end.
Proof.
  induction l as [|[k [c s]] l IH]; cbn [a_find map fst snd]; [reflexivity|].
  destruct (N.eqb k key); auto.
Qed.

Lemma rs_live a l k s :
  Forall (rs_ok a) (map sproj l) -> find_s k l = Some s -> s_dead s = false ->
  exists c sn, a_find k (a_streams a) = Some (c, sn) /\ s_win s <= c - sn.
Proof.
  intros R3 F Hd. rewrite Forall_map in R3.
  rewrite <- (find_s_id _ _ _ F). exact (Forall_find _ _ _ _ R3 F Hd).
Qed.

Lemma R_shifted b st st' a a' d :
  Forall (rs_ok a) (map sproj (c_strs st)) -> shifted b st st' -> InvD d st' ->
  c_win st <= a_credit a' - a_sent a' -> c_init st = a_init a' ->
  (forall k c sn, a_find k (a_streams a) = Some (c, sn) ->
     exists c' sn', a_find k (a_streams a') = Some (c', sn') /\ c - sn + b k <= c' - sn') ->
  R st' a'.
Proof.
  intros R3 (W & Ci & Sh) (_ & _ & _ & _ & _ & _ & _ & ND) Hw Hi Ha.
  split; [congruence|]. split; [congruence|].
  apply Forall_map, Forall_forall. intros s' Hin Hd.
  destruct (Sh _ _ (find_s_complete _ _ ND Hin) Hd) as (s & F & Hds & Hws).
  destruct (rs_live _ _ _ _ R3 F Hds) as (c & sn & Fa & Hc).
  destruct (Ha _ _ _ Fa) as (c' & sn' & Fa' & Hc'). exists c', sn'. split; [exact Fa'|].
  cbn [sproj fst snd]. lia.
Qed.

Theorem step_sim d st a l st' outs :
  0 <= d -> InvD d st -> R st a -> label_ok l ->
  step st l = Ok st' outs -> has_conn_err outs = false ->
  events_ok a (wevs l outs) st'.
Proof.
  intros Hd HI HR Hl Hstep Herr. unfold events_ok.
  pose proof HR as (R1 & R2 & R3).
  assert (HI' : InvD d st').
  { pose proof (step_inv d st l Hd HI Hl) as X. rewrite Hstep in X. apply X, Herr. }
  destruct (shuffling l) eqn:Esh.
  { pose proof (step_shuffles d st l Hd HI Hl Esh) as X. rewrite Hstep in X. destruct X as (_ & Sh & Q).
    replace (wevs l outs) with (data_evs outs) by (destruct l; try reflexivity; discriminate).
    rewrite (data_evs_quiet _ Q). exists a. split; [reflexivity|].
    apply (R_shifted _ st st' a a d R3 Sh HI' R1 R2). intros k c sn Fk. exists c, sn. split; [exact Fk|lia]. }
  destruct l as [sid init|sid|sid o sz eos vs|sid o cap vs|sid o inc|inc vs|sid o isr qe vs|sid vs|sid o vs
                |new touched vs|sid sz mx|sid o|sid|sid|sid|sid o]; try discriminate Esh;
    cbn [label_ok wevs acct_run] in *.
  - (* LNew *)
    cbn [step] in Hstep. destruct (find_s sid (c_strs st)) eqn:F; [discriminate|].
    destruct (negb ((init =? c_init st) || (init =? 0))) eqn:E; [discriminate|].
    injection Hstep as <- <-. destruct HI as (_ & _ & _ & _ & H5 & _).
    eexists. split; [reflexivity|]. split; [exact R1|]. split; [exact R2|].
    cbn [set_strs c_strs map]. constructor.
    + intros _. cbn [sproj fst snd a_streams a_find s_id s_win]. rewrite N.eqb_refl.
      exists (a_init a), 0. split; [reflexivity|lia].
    + apply Forall_forall. intros p Hp Hdead. rewrite Forall_forall in R3.
      destruct (R3 p Hp Hdead) as (c & sn & A & B). exists c, sn. split; [|exact B].
      cbn [a_streams a_find]. destruct (N.eqb_spec sid (fst p)) as [Ek|_]; [|exact A].
      destruct (find_s_none_notin _ _ F). rewrite Ek.
      apply in_map_iff in Hp. destruct Hp as (y & <- & Hy). exact (in_map s_id _ _ Hy).
  - (* LRemove *)
    cbn [step] in Hstep. destruct (find_s sid (c_strs st)) as [s|]; [|discriminate].
    destruct (s_avail s =? 0); [|discriminate].
    injection Hstep as <- <-. exists a. split; [reflexivity|]. split; [exact R1|]. split; [exact R2|].
    cbn [set_strs c_strs]. rewrite Forall_map in *. apply Forall_del, R3.
  - (* LRecvStreamWU *)
    pose proof (recv_stream_wu_spec d st sid o inc Hd HI (proj1 Hl)) as X. cbn [step] in Hstep.
    rewrite Hstep in X. destruct X as (_ & Sh). cbn [acct_step].
    destruct (a_find sid (a_streams a)) as [[c0 s0]|] eqn:Fa; (eexists; split; [reflexivity|]);
      (apply (R_shifted _ st st' a _ d R3 Sh HI'); cbn [a_credit a_sent a_init a_streams];
       [exact R1|exact R2|]); intros k c sn Fk.
    + rewrite (a_find_upd _ _ _ _ _ Fa). destruct (N.eqb_spec sid k) as [<-|_].
      * rewrite Fa in Fk. injection Fk as <- <-. exists (c0 + inc), s0. split; [reflexivity|lia].
      * exists c, sn. split; [exact Fk|lia].
    + exists c, sn. split; [exact Fk|]. destruct (N.eqb_spec sid k) as [<-|_]; [congruence|lia].
  - (* LRecvConnWU *)
    pose proof (recv_conn_wu_spec d st inc vs Hd HI (proj1 Hl)) as X. rewrite Hstep in X.
    destruct X as (_ & Sh). eexists. split; [reflexivity|].
    apply (R_shifted _ (set_cwin st (c_win st + inc)) st' a _ d R3 (Sh Herr) HI');
      cbn [set_cwin c_win c_init a_credit a_sent a_init a_streams]; [lia|exact R2|].
    intros k c sn Fk. exists c, sn. split; [exact Fk|lia].
  - (* LApplySettings *)
    pose proof (apply_settings_spec d st new touched vs Hd HI Hl) as X. rewrite Hstep in X.
    destruct X as (_ & Sh). eexists. split; [reflexivity|].
    apply (R_shifted _ (set_cinit st new) st' a _ d R3 (Sh Herr) HI');
      cbn [set_cinit c_win c_init a_credit a_sent a_init a_streams]; [exact R1|reflexivity|].
    intros k c sn Fk. rewrite a_find_map, Fk. exists (c + (new - a_init a)), sn. split; [reflexivity|lia].
  - (* LPopData *)
    pose proof (pop_data_spec d st sid sz mx Hd HI (proj1 Hl) (proj2 Hl)) as X. rewrite Hstep in X.
    destruct X as (s & q & s2 & o2 & len & F & _ & Elen & Hlen & Hlive & Hfit & _ & _ & _ & _ & Sh & -> & Q).
    cbn [data_evs flat_map app]. fold (data_evs o2). rewrite (data_evs_quiet _ Q). cbn [acct_run acct_step].
    destruct (Z.eqb_spec len 0) as [E0|E0].
    + (* the accountant ignores an empty frame *)
      exists a. split; [reflexivity|].
      apply (R_shifted _ (set_cwin st (c_win st - len)) st' a a d R3 Sh HI'); [cbn [set_cwin c_win]; lia|exact R2|].
      intros k c sn Fk. exists c, sn. split; [exact Fk|]. destruct (N.eqb sid k); lia.
    + destruct (Hlive ltac:(lia)) as (Hd0 & _). destruct (Hfit ltac:(lia)) as (Hw1 & Hw2).
      destruct (rs_live _ _ _ _ R3 F Hd0) as (c & sn & Fa & Hc). rewrite Fa.
      replace ((sn + len <=? c) && (a_sent a + len <=? a_credit a)) with true by lia.
      eexists. split; [reflexivity|].
      apply (R_shifted _ (set_cwin st (c_win st - len)) st' a _ d R3 Sh HI');
        cbn [set_cwin c_win c_init a_credit a_sent a_init a_streams]; [lia|exact R2|].
      intros k c1 sn1 Fk. rewrite (a_find_upd _ _ _ _ _ Fa). destruct (N.eqb_spec sid k) as [<-|_].
      * rewrite Fa in Fk. injection Fk as <- <-. exists c, (sn + len). split; [reflexivity|lia].
      * exists c1, sn1. split; [exact Fk|lia].
Qed.
