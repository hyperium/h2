(* C13: Model/HttpRules.v against Ref/Rfc9113Http.v.  Receive side: a block that HeaderBlock::load
   accepts is, unless over size, its field list ([load_spec]), and the stream layer is compared with
   the reference on [pseudo_of fs].  Send side: [send_block_ok].  End of a body: [dec_verdict]. *)
From Coq Require Import String Ascii.
From H2V Require Import Base.Tac Base.Bytes Model.HttpTokens Ref.Rfc9113Http Model.HttpRules.
Local Open Scope N_scope.

Lemma existsb_false {A} (p : A -> bool) l : existsb p l = false <-> forall x, In x l -> p x = false.
Proof.
  induction l as [|a l IH]; cbn [existsb In]; [split; [intros _ x []|reflexivity]|].
  rewrite orb_false_iff, IH. split.
  - intros [Ha Hl] x [<-|Hx]; auto.
  - intros H. split; [apply H; left; reflexivity|intros x Hx; apply H; right; exact Hx].
Qed.

Lemma forallb_existsb_false {A} (p q : A -> bool) l :
  (forall x, p x = true -> q x = false) -> forallb p l = true -> existsb q l = false.
Proof.
  intros H Hp. apply existsb_false. intros x Hx. exact (H x (proj1 (forallb_forall p l) Hp x Hx)).
Qed.

Lemma existsb_ext {A} (p q : A -> bool) l : (forall x, p x = q x) -> existsb p l = existsb q l.
Proof. intros H. induction l as [|x l IH]; cbn [existsb]; [reflexivity|]. rewrite H, IH. reflexivity. Qed.

Lemma filter_none {A} (p : A -> bool) l : (forall x, In x l -> p x = false) -> filter p l = [].
Proof.
  induction l as [|x l IH]; intros H; [reflexivity|]. cbn [filter]. rewrite (H x (or_introl eq_refl)).
  apply IH. intros y Hy. apply H. right. exact Hy.
Qed.

(* The reference tests a name against [octets s], the model against [bstr s]: the same function
   under two names, so the two spellings are convertible. *)
Lemma octets_bstr s : octets s = bstr s.
Proof. reflexivity. Qed.

Lemma named_bstr s f : named s f = list_N_eqb (fst f) (bstr s).
Proof. reflexivity. Qed.

Lemma has_cons s f r : has s (f :: r) = named s f || has s r.
Proof. reflexivity. Qed.

Lemma occurrences_cons s f r :
  occurrences s (f :: r) = if named s f then S (occurrences s r) else occurrences s r.
Proof. unfold occurrences. cbn [filter]. destruct (named s f); reflexivity. Qed.

Lemma occurrences_app s a b : occurrences s (a ++ b) = (occurrences s a + occurrences s b)%nat.
Proof. unfold occurrences. rewrite filter_app, app_length. reflexivity. Qed.

Lemma has_false_occ s fs : has s fs = false -> occurrences s fs = O.
Proof.
  induction fs as [|f r IH]; [reflexivity|]. rewrite has_cons, occurrences_cons.
  destruct (named s f); cbn [orb]; [discriminate|exact IH].
Qed.

Lemma has_value_of s fs : has s fs = is_some (value_of s fs).
Proof.
  induction fs as [|f r IH]; [reflexivity|]. rewrite has_cons. cbn [value_of].
  destruct (named s f); cbn [orb is_some]; [reflexivity|exact IH].
Qed.

Lemma value_of_first s fs : value_of s fs = hd_error (values_of s fs).
Proof.
  unfold values_of. induction fs as [|f r IH]; [reflexivity|]. cbn [value_of filter].
  destruct (named s f); [reflexivity|exact IH].
Qed.

Lemma value_of_app s a b :
  value_of s (a ++ b) = match value_of s a with Some v => Some v | None => value_of s b end.
Proof.
  induction a as [|f r IH]; [reflexivity|]. cbn [app value_of]. destruct (named s f); [reflexivity|exact IH].
Qed.

(* whether a field is a pseudo-header field is decided by its name *)
Lemma not_named s f : is_pseudo f <> is_pseudo (bstr s, []) -> named s f = false.
Proof.
  intros H. destruct (named s f) eqn:E; [|reflexivity]. destruct H.
  rewrite named_bstr in E. apply list_N_eqb_eq in E. unfold is_pseudo. rewrite E. reflexivity.
Qed.

Lemma no_pseudo_has s fs : existsb is_pseudo fs = false -> is_pseudo (bstr s, []) = true -> has s fs = false.
Proof.
  intros H Hs. apply existsb_false. intros f Hf. apply not_named.
  rewrite (proj1 (existsb_false _ _) H f Hf), Hs. discriminate.
Qed.

Lemma no_pseudo_occ s fs :
  existsb is_pseudo fs = false -> is_pseudo (bstr s, []) = true -> occurrences s fs = O.
Proof. intros H Hs. exact (has_false_occ s fs (no_pseudo_has s fs H Hs)). Qed.

Lemma pseudo_not_regular_name f : is_pseudo f = true -> connection_specific f = false /\ bad_te f = false.
Proof.
  intros Fp. unfold connection_specific, connection_specific_names, bad_te. cbn [existsb].
  rewrite !(not_named _ f) by (rewrite Fp; discriminate). split; reflexivity.
Qed.

Definition pname (h : hname) : string :=
  match h with
  | HField => "" | HAuthority => ":authority" | HMethod => ":method" | HScheme => ":scheme"
  | HPath => ":path" | HProtocol => ":protocol" | HStatus => ":status"
  end.

Definition hname_eqb (a b : hname) : bool :=
  match a, b with
  | HField, HField | HAuthority, HAuthority | HMethod, HMethod | HScheme, HScheme
  | HPath, HPath | HProtocol, HProtocol | HStatus, HStatus => true
  | _, _ => false
  end.

Lemma hname_eqb_eq a b : hname_eqb a b = true <-> a = b.
Proof. destruct a, b; cbn [hname_eqb]; split; congruence. Qed.

Lemma pname_eqb a b : a <> HField -> list_N_eqb (bstr (pname a)) (bstr (pname b)) = hname_eqb a b.
Proof. destruct a, b; intros H; try congruence; reflexivity. Qed.

Lemma pname_pseudo h : h <> HField -> is_pseudo (bstr (pname h), []) = true.
Proof. destruct h; [congruence|reflexivity..]. Qed.

(* the check Header::new applies to the value of each kind of field *)
Definition value_check (h : hname) : list N -> bool :=
  match h with HField => value_ok | HMethod => method_ok | HStatus => status_ok | _ => utf8_ok end.

(* one arm of the cascade over the pseudo-header names *)
Lemma header_arm rest n (ok : bool) (h0 h : hname) k :
  (if list_N_eqb rest n then (if ok then Some h0 else None) else k) = Some h ->
  rest = n /\ ok = true /\ h0 = h \/ k = Some h.
Proof.
  destruct (list_N_eqb rest n) eqn:E; [|auto]. apply list_N_eqb_eq in E.
  destruct ok; [|discriminate]. intros [= <-]. auto.
Qed.

Lemma header_new_spec f h :
  header_new f = Some h ->
  value_check h (snd f) = true /\
  if is_pseudo f then h <> HField /\ fst f = bstr (pname h) else h = HField /\ name_ok (fst f) = true.
Proof.
  unfold header_new, is_pseudo. destruct (fst f) as [|c rest]; [discriminate|].
  destruct (c =? 58) eqn:Ec.
  - apply N.eqb_eq in Ec. subst c. intros H.
    (* the six names, in the order of the code *)
    do 6 (apply header_arm in H; destruct H as [(-> & Hv & <-)|H];
          [split; [exact Hv|split; [discriminate|reflexivity]]|]).
    discriminate.
  - destruct (name_ok (c :: rest)); [|discriminate]. destruct (value_ok (snd f)) eqn:Ev; [|discriminate].
    intros [= <-]. auto.
Qed.

Lemma header_new_named f h h' :
  header_new f = Some h -> h' <> HField -> named (pname h') f = hname_eqb h h'.
Proof.
  intros H Hh'. destruct (header_new_spec f h H) as (_ & Hf). destruct (is_pseudo f) eqn:Fp.
  - destruct Hf as (Hh & Fn). rewrite named_bstr, Fn. exact (pname_eqb h h' Hh).
  - destruct Hf as (-> & _). rewrite not_named by (rewrite Fp, (pname_pseudo h' Hh'); discriminate).
    destruct h'; [congruence|reflexivity..].
Qed.

Lemma name_char_not_bad b : name_char_ok b = true -> bad_name_octet b = false.
Proof. unfold name_char_ok, bad_name_octet, in_range. lia. Qed.

Lemma value_char_not_bad b : value_char_ok b = true -> bad_value_octet b = false.
Proof. unfold value_char_ok, bad_value_octet. lia. Qed.

Lemma name_ok_regular n : name_ok n = true -> bad_regular_name n = false.
Proof.
  destruct n as [|c r]; cbn [name_ok bad_regular_name]; [discriminate|].
  rewrite andb_true_iff. intros [_ H]. exact (forallb_existsb_false _ _ _ name_char_not_bad H).
Qed.

Lemma regular_not_bad f :
  is_pseudo f = false -> name_ok (fst f) = true -> value_ok (snd f) = true -> bad_field f = false.
Proof.
  intros Fp Hn Hv. unfold bad_field.
  rewrite Fp, (name_ok_regular _ Hn), (forallb_existsb_false _ _ _ value_char_not_bad Hv). reflexivity.
Qed.

Lemma header_new_not_bad f h : header_new f = Some h -> bad_field f = false.
Proof.
  intros H. destruct (header_new_spec f h H) as (Hv & Hf). destruct (is_pseudo f) eqn:Fp.
  - destruct Hf as (Hh & Fn). unfold bad_field, unknown_pseudo. rewrite Fp.
    cbn [existsb defined_pseudo request_pseudo response_pseudo app].
    rewrite !named_bstr, Fn. destruct h; [congruence|reflexivity..].
  - destruct Hf as (-> & Hn). exact (regular_not_bad f Fp Hn Hv).
Qed.

(* connection-specific fields and TE: the code's tests are the reference's *)
Lemma conn_specific_ref f : conn_specific_name (fst f) = connection_specific f.
Proof.
  unfold conn_specific_name, connection_specific, connection_specific_names. cbn [existsb].
  rewrite !named_bstr.
  generalize (list_N_eqb (fst f) (bstr "connection")) (list_N_eqb (fst f) (bstr "transfer-encoding"))
    (list_N_eqb (fst f) (bstr "upgrade")) (list_N_eqb (fst f) (bstr "keep-alive"))
    (list_N_eqb (fst f) (bstr "proxy-connection")).
  intros [] [] [] [] []; reflexivity.
Qed.

Lemma te_ref f : te_not_trailers f = bad_te f.
Proof. reflexivity. Qed.

Definition regular_fields (fs : list field) : list field := filter (fun f => negb (is_pseudo f)) fs.

Definition pseudo_of (fs : list field) : pseudo :=
  mk_pseudo (value_of ":method" fs) (value_of ":scheme" fs) (value_of ":authority" fs)
            (value_of ":path" fs) (value_of ":protocol" fs) (value_of ":status" fs).

Lemma ps_get_pseudo_of h fs : h <> HField -> ps_get h (pseudo_of fs) = value_of (pname h) fs.
Proof. destruct h; [congruence|reflexivity..]. Qed.

Lemma pseudo_ext p q : (forall h, h <> HField -> ps_get h p = ps_get h q) -> p = q.
Proof.
  intros H. destruct p, q.
  f_equal; [apply (H HMethod)|apply (H HScheme)|apply (H HAuthority)|apply (H HPath)|apply (H HProtocol)
           |apply (H HStatus)]; discriminate.
Qed.

Lemma ps_get_empty h : ps_get h pseudo_empty = None.
Proof. destruct h; reflexivity. Qed.

Lemma ps_get_set h h' v p :
  h' <> HField -> ps_get h' (ps_set h v p) = if hname_eqb h h' then Some v else ps_get h' p.
Proof. destruct h, h'; intros H; try congruence; reflexivity. Qed.

Lemma load_field_pseudo max s h f :
  h <> HField ->
  load_field max s h f =
    if l_reg s then Continue (set_mal s)
    else if is_some (ps_get h (l_ps s)) then Continue (set_mal s)
    else match check_size max (add_size (pname_len h + lenN (snd f) + 32) s) with
         | Break => Break
         | Continue s1 => Continue (if l_over s1 then s1 else put_ps h (snd f) s1)
         end.
Proof. destruct h; [congruence|reflexivity..]. Qed.

(* check_size!() and the store that follows it, the common tail of both arms of the decoder
   callback: the store [g] happens unless the block is, or thereby becomes, over size *)
Lemma sized_store max s0 (g : lstate -> lstate) s' :
  (forall s, l_reg (g s) = l_reg s /\ l_mal (g s) = l_mal s) ->
  match check_size max s0 with
  | Break => Break
  | Continue s1 => Continue (if l_over s1 then s1 else g s1)
  end = Continue s' ->
  l_reg s' = l_reg s0 /\ l_mal s' = l_mal s0 /\ (l_over s' = false -> l_over s0 = false /\ s' = g s0).
Proof.
  intros Hg. unfold check_size. destruct (_ <? _); [discriminate|].
  destruct ((max <=? l_size s0) && negb (l_over s0)); cbn [l_over set_over].
  - intros [= <-]. repeat split; discriminate.
  - destruct (l_over s0) eqn:Eo; intros [= <-].
    + repeat split; congruence.
    + destruct (Hg s0). auto.
Qed.

Lemma load_step max s f h s' :
  header_new f = Some h -> load_field max s h f = Continue s' -> l_mal s' = false ->
  l_mal s = false /\ connection_specific f = false /\ bad_te f = false /\
  (is_pseudo f = true -> l_reg s = false) /\ l_reg s' = l_reg s || negb (is_pseudo f) /\
  ps_get h (l_ps s) = None /\
  (l_over s' = false ->
   l_over s = false /\ l_ps s' = ps_set h (snd f) (l_ps s) /\ l_fields s' = l_fields s ++ regular_fields [f]).
Proof.
  intros Hn Hl Hm. destruct (header_new_spec f h Hn) as (_ & Hf).
  unfold regular_fields. cbn [filter]. destruct (is_pseudo f) eqn:Fp; cbn [negb].
  - destruct Hf as (Hh & _). destruct (pseudo_not_regular_name f Fp) as (Nc & Nt).
    rewrite (load_field_pseudo max s h f Hh) in Hl.
    destruct (l_reg s) eqn:Er; [injection Hl as <-; discriminate Hm|].
    destruct (ps_get h (l_ps s)) eqn:Eg; [injection Hl as <-; discriminate Hm|]. cbn [is_some] in Hl.
    apply sized_store in Hl; [|intros; split; reflexivity]. destruct Hl as (Lr & Lm & Lo).
    cbn [l_reg l_mal l_over add_size] in Lr, Lm, Lo.
    split; [congruence|]. split; [exact Nc|]. split; [exact Nt|]. split; [reflexivity|].
    split; [rewrite Lr; exact Er|]. split; [reflexivity|].
    intros Ho. destruct (Lo Ho) as (Lo1 & ->). rewrite app_nil_r. auto.
  - destruct Hf as (-> & _). cbn [load_field] in Hl.
    destruct (conn_specific_name (fst f)) eqn:Ec; [injection Hl as <-; discriminate Hm|].
    destruct (te_not_trailers f) eqn:Et; [injection Hl as <-; discriminate Hm|].
    apply sized_store in Hl; [|intros; split; reflexivity]. destruct Hl as (Lr & Lm & Lo).
    cbn [l_reg l_mal l_over add_size set_reg] in Lr, Lm, Lo.
    rewrite conn_specific_ref in Ec. rewrite te_ref in Et.
    split; [congruence|]. split; [exact Ec|]. split; [exact Et|]. split; [discriminate|].
    split; [rewrite orb_true_r; exact Lr|]. split; [reflexivity|].
    intros Ho. destruct (Lo Ho) as (Lo1 & ->). auto.
Qed.

Lemma load_from_spec max fs : forall s b,
  load_from max s fs = LOk b ->
  l_mal s = false /\
  Forall (fun f => header_new f <> None) fs /\
  existsb connection_specific fs = false /\ existsb bad_te fs = false /\
  (if l_reg s then existsb is_pseudo fs else pseudo_after_regular fs) = false /\
  (b_over b = false ->
     l_over s = false /\
     b_fields b = l_fields s ++ regular_fields fs /\
     forall h, h <> HField ->
       match ps_get h (l_ps s) with
       | Some v => ps_get h (b_pseudo b) = Some v /\ has (pname h) fs = false
       | None => ps_get h (b_pseudo b) = value_of (pname h) fs /\ (occurrences (pname h) fs <= 1)%nat
       end).
Proof.
  induction fs as [|f r IH]; intros s b H; cbn [load_from] in H.
  - destruct (l_mal s) eqn:Em; [discriminate|]. injection H as <-.
    split; [reflexivity|]. split; [constructor|]. split; [reflexivity|]. split; [reflexivity|].
    split; [destruct (l_reg s); reflexivity|]. cbn [b_over b_fields b_pseudo]. intros Ho.
    split; [exact Ho|]. split; [symmetry; apply app_nil_r|].
    intros h _. destruct (ps_get h (l_ps s)); split; auto.
  - destruct (header_new f) as [h|] eqn:Eh; [|discriminate].
    destruct (load_field max s h f) as [s'|] eqn:El; [|discriminate].
    destruct (IH s' b H) as (M & V & C & T & P & O).
    destruct (load_step max s f h s' Eh El M) as (L1 & Lc & Lt & Lr & Lr' & Lg & Lo).
    split; [exact L1|]. split; [constructor; [congruence|exact V]|].
    cbn [existsb]. rewrite Lc, Lt. split; [exact C|]. split; [exact T|]. split.
    { rewrite Lr' in P. cbn [pseudo_after_regular]. destruct (is_pseudo f).
      - rewrite (Lr eq_refl) in *. exact P.
      - rewrite orb_true_r in P. destruct (l_reg s); exact P. }
    intros Ho. destruct (O Ho) as (O1 & O2 & O3). destruct (Lo O1) as (Lo1 & Lps & Lf).
    split; [exact Lo1|]. split.
    { rewrite O2, Lf, <- app_assoc. unfold regular_fields. cbn [filter].
      destruct (negb (is_pseudo f)); reflexivity. }
    intros h' Hh'. specialize (O3 h' Hh'). rewrite Lps, (ps_get_set h h' _ _ Hh') in O3.
    rewrite has_cons, occurrences_cons. cbn [value_of]. rewrite (header_new_named f h h' Eh Hh').
    destruct (hname_eqb h h') eqn:E; [|exact O3].
    apply hname_eqb_eq in E. subst h'. rewrite Lg. destruct O3 as (O4 & O5).
    split; [exact O4|]. rewrite (has_false_occ _ _ O5). auto.
Qed.

Lemma no_dup_pseudo fs :
  (forall h, h <> HField -> (occurrences (pname h) fs <= 1)%nat) -> duplicated_pseudo fs = false.
Proof.
  intros H.
  assert (K : forall h, h <> HField -> Nat.ltb 1 (occurrences (pname h) fs) = false)
    by (intros h Hh; apply Nat.ltb_ge, H, Hh).
  unfold duplicated_pseudo.
  change defined_pseudo with (map pname [HMethod; HScheme; HAuthority; HPath; HProtocol; HStatus]).
  cbn [map existsb]. rewrite !K by discriminate. reflexivity.
Qed.

Lemma load_spec max fs b :
  load max fs = LOk b ->
  Forall (fun f => header_new f <> None) fs /\
  existsb bad_field fs || existsb connection_specific fs || existsb bad_te fs || pseudo_after_regular fs = false /\
  (b_over b = false ->
   duplicated_pseudo fs = false /\ b_pseudo b = pseudo_of fs /\ b_fields b = regular_fields fs).
Proof.
  unfold load. intros H. destruct (load_from_spec max fs lstate0 b H) as (_ & V & C & T & P & O).
  cbn [lstate0 l_reg] in P. split; [exact V|]. split.
  { rewrite C, T, P, !orb_false_r. apply existsb_false. intros f Hf.
    pose proof (proj1 (Forall_forall _ _) V f Hf) as Hn.
    destruct (header_new f) as [h|] eqn:E; [exact (header_new_not_bad f h E)|congruence]. }
  intros Ho. destruct (O Ho) as (_ & O2 & O3). cbn [lstate0 l_ps l_fields app] in O2, O3.
  assert (O4 : forall h, h <> HField ->
            ps_get h (b_pseudo b) = value_of (pname h) fs /\ (occurrences (pname h) fs <= 1)%nat).
  { intros h Hh. specialize (O3 h Hh). rewrite ps_get_empty in O3. exact O3. }
  split; [|split; [|exact O2]].
  - apply no_dup_pseudo. intros h Hh. exact (proj2 (O4 h Hh)).
  - apply pseudo_ext. intros h Hh. rewrite (ps_get_pseudo_of h fs Hh). exact (proj1 (O4 h Hh)).
Qed.

Lemma accepted_value fs h v :
  Forall (fun f => header_new f <> None) fs -> h <> HField -> value_of (pname h) fs = Some v ->
  value_check h v = true.
Proof.
  intros V Hh. induction V as [|f r Hf _ IH]; cbn [value_of]; [discriminate|].
  destruct (header_new f) as [h0|] eqn:E; [|congruence].
  rewrite (header_new_named f h0 h E Hh). destruct (hname_eqb h0 h) eqn:Eq; [|exact IH].
  apply hname_eqb_eq in Eq. subst h0. intros [= <-]. exact (proj1 (header_new_spec f h E)).
Qed.

Lemma values_of_regular s fs :
  is_pseudo (bstr s, []) = false -> values_of s fs = all_values (bstr s) (regular_fields fs).
Proof.
  intros Hs. unfold values_of, all_values, regular_fields. induction fs as [|f r IH]; [reflexivity|]. cbn [filter].
  destruct (is_pseudo f) eqn:Fp; cbn [negb filter].
  - rewrite not_named by (rewrite Fp, Hs; discriminate). exact IH.
  - change (list_N_eqb (fst f) (bstr s)) with (named s f).
    destruct (named s f); cbn [map]; rewrite IH; reflexivity.
Qed.

Lemma first_value_all n l : first_value n l = match all_values n l with [] => None | v :: _ => Some v end.
Proof.
  unfold all_values. induction l as [|f r IH]; [reflexivity|]. cbn [first_value filter].
  destruct (list_N_eqb (fst f) n); [reflexivity|exact IH].
Qed.

Lemma parse_u64_decimal v n : parse_u64 v = Some n -> decimal v = Some n.
Proof.
  unfold parse_u64, decimal. destruct v as [|x r]; [discriminate|].
  destruct (19 <? lenN (x :: r)); [discriminate|].
  change (forallb is_digit (x :: r)) with (forallb digit (x :: r)).
  destruct (forallb digit (x :: r)); [|discriminate]. intros H. exact H.
Qed.

Lemma opt_N_eqb_some a n : opt_N_eqb a (Some n) = true -> a = Some n.
Proof. destruct a as [x|]; cbn [opt_N_eqb]; [|discriminate]. intros H. apply N.eqb_eq in H. congruence. Qed.

Lemma all_same_ok (l : list (option N)) n :
  Forall (eq (Some n)) l ->
  existsb (fun v => match v with None => true | Some _ => false end) l = false /\ all_equal l = true.
Proof.
  induction 1 as [|a l <- Hl (I1 & I2)]; [split; reflexivity|]. split; [exact I1|].
  destruct Hl as [|b l' <- _]; [reflexivity|]. cbn [all_equal] in *. rewrite N.eqb_refl. exact I2.
Qed.

(* the content-length part of Recv::recv_headers on a stream that is not answering HEAD *)
Lemma head_cl_spec cl eos b cl' :
  head_content_length cl eos b = Some cl' -> cl <> CLHead ->
  match first_value cl_name (b_fields b) with
  | None => cl' = cl
  | Some v => exists n, parse_u64 v = Some n /\ cl' = CLRemaining n /\
      existsb (fun w => negb (opt_N_eqb (parse_u64 w) (Some n))) (all_values cl_name (b_fields b)) = false /\
      eos && (0 <? n) && status_not_204_304 (b_pseudo b) = false
  end.
Proof.
  intros H Hc. unfold head_content_length in H. destruct cl as [| |rem]; [|congruence|].
  (* [CLOmitted] and [CLRemaining rem] take the same way through the code *)
  all: destruct (first_value cl_name (b_fields b)) as [v|]; [|congruence].
  all: destruct (parse_u64 v) as [n|]; [|discriminate]; exists n.
  all: destruct (existsb _ _); [discriminate|]; destruct (_ && _ && _); [discriminate|].
  all: injection H as <-; auto.
Qed.

Lemma head_cl_ok cl eos b fs cl' :
  head_content_length cl eos b = Some cl' -> cl <> CLHead -> b_fields b = regular_fields fs ->
  bad_content_length fs = false.
Proof.
  intros H Hc Hf. apply head_cl_spec in H; [|exact Hc]. rewrite first_value_all in H.
  unfold bad_content_length. rewrite (values_of_regular "content-length" fs eq_refl), <- Hf.
  change (bstr "content-length") with cl_name.
  destruct (all_values cl_name (b_fields b)) as [|w ws]; [reflexivity|]. destruct H as (n & _ & _ & K & _).
  assert (A : Forall (eq (Some n)) (map decimal (w :: ws))).
  { apply Forall_map, Forall_forall. intros x Hx. symmetry.
    apply parse_u64_decimal, opt_N_eqb_some, negb_false_iff. exact (proj1 (existsb_false _ _) K x Hx). }
  destruct (all_same_ok _ n A) as (A1 & A2). cbv zeta. rewrite A1, A2. reflexivity.
Qed.

Definition bad_request_ps (P : pseudo) : bool :=
  is_some (p_status P) || negb (is_some (p_method P)) ||
  (if value_is "CONNECT" (p_method P) && negb (is_some (p_protocol P)) then
     is_some (p_scheme P) || is_some (p_path P) || negb (is_some (p_authority P))
   else
     negb (is_some (p_scheme P)) || negb (is_some (p_path P)) || value_is "" (p_path P) ||
     (is_some (p_protocol P) && negb (value_is "CONNECT" (p_method P)))).

Lemma bad_request_pseudo fs : bad_request fs = bad_request_ps (pseudo_of fs).
Proof. unfold bad_request, bad_request_ps. rewrite !has_value_of. reflexivity. Qed.

Lemma list_N_eqb_nil (p : list N) : list_N_eqb p [] = (lenN p =? 0).
Proof.
  destruct p as [|x r]; [reflexivity|]. unfold lenN. cbn [length list_N_eqb]. symmetry. apply N.eqb_neq. lia.
Qed.

Lemma convert_request_ok v P fields rq :
  convert_request v P fields = Some rq -> bad_request_ps P = false /\ p_method P = Some (rq_method rq).
Proof.
  unfold convert_request, bad_request_ps. destruct (p_method P) as [m|]; [|discriminate].
  cbn [value_is is_some negb orb]. rewrite (octets_bstr "CONNECT").
  generalize (list_N_eqb m (bstr "CONNECT")) (is_some (p_protocol P)). intros C Pr.
  replace (negb C || Pr) with (negb (C && negb Pr)) by (destruct C, Pr; reflexivity).
  (* K: CONNECT without :protocol (8.5); E: :protocol on another method (RFC 8441) *)
  generalize (C && negb Pr) (Pr && negb C). intros K E.
  destruct E; [discriminate|]. destruct (is_some (p_status P)); [discriminate|].
  destruct (is_some (p_authority P) && negb (v_authority v)); [discriminate|].
  destruct K; cbn [andb orb negb].
  - destruct (is_some (p_authority P)); [|discriminate].
    destruct (p_scheme P); [discriminate|]. destruct (p_path P); [discriminate|]. cbn [is_some negb orb].
    destruct (negb (uri_from_parts_ok _ _ _)); [discriminate|]. intros [= <-]. auto.
  - destruct (p_scheme P) as [s|]; [|discriminate]. destruct (negb (v_scheme v)); [discriminate|].
    destruct (p_path P) as [p|]; [|discriminate]. cbn [is_some negb orb value_is].
    change (octets "") with (@nil N). rewrite list_N_eqb_nil. destruct (lenN p =? 0); [discriminate|]. cbn [orb].
    destruct (negb (v_path v)); [discriminate|]. destruct (negb (uri_from_parts_ok _ _ _)); [discriminate|].
    intros [= <-]. auto.
Qed.

Lemma convert_response_ok fs fields rs :
  convert_response (pseudo_of fs) fields = Some rs -> existsb (fun s => has s fs) request_pseudo = false.
Proof.
  unfold convert_response. cbn [pseudo_of p_method p_scheme p_authority p_path p_protocol request_pseudo existsb].
  rewrite !has_value_of, !orb_assoc, orb_false_r. destruct (_ || _); [discriminate|reflexivity].
Qed.

Lemma status_1xx_num v :
  status_ok v = true ->
  (match v with [a; b; c] => (a =? 49) && is_digit b && is_digit c | _ => false end)
  = (100 <=? status_num v) && (status_num v <? 200).
Proof.
  destruct v as [|a [|b [|c [|d r]]]]; cbn [status_ok]; try discriminate.
  unfold in_range, is_digit, status_num. lia.
Qed.

(* the informational test of the code is the reference's on an accepted block *)
Lemma informational_ref fs :
  Forall (fun f => header_new f <> None) fs -> ps_informational (pseudo_of fs) = status_1xx fs.
Proof.
  intros V. unfold ps_informational, status_1xx. cbn [pseudo_of p_status].
  destruct (value_of ":status" fs) as [v|] eqn:Ev; [|reflexivity].
  symmetry. apply status_1xx_num. exact (accepted_value fs HStatus v V ltac:(discriminate) Ev).
Qed.

Lemma status_1xx_has fs : status_1xx fs = true -> has ":status" fs = true.
Proof. unfold status_1xx. rewrite has_value_of. destruct (value_of ":status" fs); [reflexivity|discriminate]. Qed.

(* PushPromise::validate_request, for a block [w] whose method and content-length values are those
   the test was made on *)
Lemma validate_push_ok m fields w :
  validate_push m fields = true -> value_of ":method" w = Some m ->
  values_of "content-length" w = all_values cl_name fields ->
  negb (value_is "GET" (value_of ":method" w) || value_is "HEAD" (value_of ":method" w)) ||
  match declared_length w with Some n => negb (n =? 0) | None => false end = false.
Proof.
  unfold validate_push, declared_length. intros Hv -> ->. apply andb_true_iff in Hv as (Hc & Hm).
  cbn [value_is]. rewrite (octets_bstr "GET"), (octets_bstr "HEAD").
  rewrite Hm. cbn [negb orb].
  rewrite first_value_all in Hc. destruct (all_values cl_name fields) as [|x xs]; [reflexivity|].
  apply opt_N_eqb_some in Hc. rewrite (parse_u64_decimal x 0 Hc). reflexivity.
Qed.

(* the two known deviations, by class: a block handed over as a response that has no :status
   field (KF-C13-1); a block handed over as trailers that has a pseudo-header field (KF-C13-2) *)
Definition KnownClass (k : kind) (fs : list field) : Prop :=
  (k = Response /\ has ":status" fs = false) \/ (k = Trailers /\ existsb is_pseudo fs = true).

(* boolean form, shared with the oracle of lib/props/parts/httprules.py *)
Definition known_class_b (k : kind) (fs : list field) : bool :=
  match k with
  | Response => negb (has ":status" fs)
  | Trailers => existsb is_pseudo fs
  | _ => false
  end.

Lemma known_class_b_iff k fs : known_class_b k fs = true <-> KnownClass k fs.
Proof. unfold known_class_b, KnownClass. destruct k; rewrite ?negb_true_iff; intuition congruence. Qed.

Lemma not_known k fs : ~ KnownClass k fs -> known_class_b k fs = false.
Proof.
  intros H. destruct (known_class_b k fs) eqn:E; [|reflexivity]. destruct (H (proj1 (known_class_b_iff k fs) E)).
Qed.

Lemma of_load_delivers k max fs K :
  delivers k (of_load max fs K) = true -> exists b, load max fs = LOk b /\ delivers k (K b) = true.
Proof. unfold of_load. destruct (load max fs) as [b| | |]; try discriminate. eauto. Qed.

(* a head handed to the application: a request (accept), a final or an interim response *)
Lemma C13_head r k hk ext max cl eos v fs :
  ~ KnownClass k fs -> (accounted k hk = true -> cl <> CLHead) ->
  delivers k (model_head r ext max cl eos v fs) = true ->
  malformed_block r k hk eos fs = false.
Proof.
  intros Hk Hcl Hd. apply of_load_delivers in Hd as (b & El & Hd). unfold recv_head in Hd.
  destruct (ps_informational (b_pseudo b) && eos) eqn:Ei; [discriminate|].
  destruct (head_content_length cl eos b) as [cl'|] eqn:Ecl; [|discriminate].
  destruct (b_over b) eqn:Eo; [destruct r; discriminate|].
  destruct (load_spec max fs b El) as (V & B & O). destruct (O Eo) as (D & Eps & Ef).
  assert (Hcl' : accounted k hk = true -> bad_content_length fs = false).
  { intros Ha. exact (head_cl_ok cl eos b fs cl' Ecl (Hcl Ha) Ef). }
  rewrite Eps, (informational_ref fs V) in *.
  unfold malformed_block, malformed, bad_fields. rewrite B, D. destruct r.
  - (* client: a response, interim exactly when the status is 1xx *)
    rewrite !andb_false_r in Hd.
    destruct (convert_response (pseudo_of fs) (b_fields b)) as [rs|] eqn:Ecv; [|discriminate].
    unfold bad_response. rewrite (convert_response_ok fs _ rs Ecv).
    destruct (status_1xx fs) eqn:E1; destruct k; try discriminate Hd.
    + cbn [andb] in Ei. rewrite (status_1xx_has fs E1), Ei. reflexivity.
    + apply not_known, negb_false_iff in Hk. rewrite Hk. cbn [kind_received_by negb orb].
      destruct (accounted Response hk); [rewrite Hcl'|]; reflexivity.
  - (* server: a request *)
    destruct (is_some _ && negb ext); [discriminate|]. destruct (is_some _ && true); [discriminate|].
    destruct (convert_request v (pseudo_of fs) (b_fields b)) as [rq|] eqn:Ecv; [|discriminate].
    destruct k; try discriminate Hd.
    rewrite bad_request_pseudo, (proj1 (convert_request_ok _ _ _ _ Ecv)), Hcl'; reflexivity.
Qed.

(* a promised request handed to the application *)
Lemma C13_pushed r max v fs hk eos :
  delivers PushedRequest (model_push r max v fs) = true ->
  malformed_block r PushedRequest hk eos fs = false.
Proof.
  intros Hd. apply of_load_delivers in Hd as (b & El & Hd). destruct r; [|discriminate].
  unfold recv_push in Hd. destruct (b_over b) eqn:Eo; [discriminate|].
  destruct (load_spec max fs b El) as (_ & B & O). destruct (O Eo) as (D & Eps & Ef). rewrite Eps in Hd.
  destruct (convert_request v (pseudo_of fs) (b_fields b)) as [rq|] eqn:Ecv; [|discriminate].
  destruct (validate_push (rq_method rq) (b_fields b)) eqn:Ev; [|discriminate].
  destruct (convert_request_ok _ _ _ _ Ecv) as (C1 & C2).
  unfold malformed_block, malformed, bad_fields, bad_pushed_request. rewrite B, D, bad_request_pseudo, C1.
  cbn [kind_received_by accounted negb orb andb]. rewrite !orb_false_r.
  apply (validate_push_ok (rq_method rq) (b_fields b) fs Ev C2).
  rewrite Ef. exact (values_of_regular "content-length" fs eq_refl).
Qed.

Lemma recv_trailers_cases cl eos b :
  recv_trailers cl eos b = (StreamError, false) \/
  eos = true /\ recv_trailers cl eos b = (Deliver (MTrailers (hm_order (b_fields b))), true).
Proof. unfold recv_trailers. destruct eos; [|auto]. destruct (ensure_content_length_zero cl); auto. Qed.

Lemma dup_regular_tail ps regs :
  existsb is_pseudo regs = false -> duplicated_pseudo (ps ++ regs) = duplicated_pseudo ps.
Proof.
  intros Hr. unfold duplicated_pseudo. cbn [defined_pseudo request_pseudo response_pseudo app existsb].
  rewrite !occurrences_app, !(no_pseudo_occ _ regs Hr), !Nat.add_0_r by reflexivity. reflexivity.
Qed.

(* a trailer section handed to the application *)
Lemma C13_trailers r max cl eos fs hk :
  ~ KnownClass Trailers fs ->
  delivers Trailers (model_trailers max cl eos fs) = true ->
  malformed_block r Trailers hk eos fs = false.
Proof.
  intros Hk Hd. apply of_load_delivers in Hd as (b & El & Hd).
  destruct (recv_trailers_cases cl eos b) as [E|(-> & _)]; [rewrite E in Hd; discriminate|].
  apply not_known in Hk. cbn [known_class_b] in Hk. destruct (load_spec max fs b El) as (_ & B & _).
  unfold malformed_block, malformed, bad_fields.
  rewrite B, Hk, (dup_regular_tail [] fs Hk : duplicated_pseudo fs = false). destruct r; reflexivity.
Qed.

(* For every role, every way of handing a block to the application, every configuration, every
   answer of the http crate's URI syntax checks, every END_STREAM flag and every field list:
   a block that RFC 9113 section 8 calls malformed is not handed to the application, unless it is
   in one of the two known classes.  [cl] is the stream's content-length state when the block
   arrives ([CLHead] = the request was a HEAD request); the content-length of a message is only
   examined by the code when the state is not [CLHead], which is when the reference accounts it. *)
Theorem C13_recv_except_known :
  forall (r : role) (k : kind) (hk : head_kind) (ext : bool) (max : N) (cl : clen) (eos : bool)
         (v : verdicts) (fs : list field),
    ~ KnownClass k fs ->
    (accounted k hk = true -> cl <> CLHead) ->
    malformed_block r k hk eos fs = true ->
    delivers k (model_recv r k ext max cl eos v fs) = false.
Proof.
  intros r k hk ext max cl eos v fs Hk Hcl Hm.
  destruct (delivers k (model_recv r k ext max cl eos v fs)) eqn:Ed; [|reflexivity].
  enough (malformed_block r k hk eos fs = false) by congruence.
  destruct k; cbn [model_recv] in Ed.
  1-3: exact (C13_head r _ hk ext max cl eos v fs Hk Hcl Ed).
  - exact (C13_pushed r max v fs hk eos Ed).
  - exact (C13_trailers r max cl eos fs hk Hk Ed).
Qed.

(* the two known classes are real: closed witnesses, which double as the replay inputs *)
Definition V_all : verdicts := mk_verdicts true true true.
Definition DEFAULT_MAX : N := 16777216.

Definition witness_1 : list field := [(bstr "x-a", bstr "v")].
Definition witness_2 : list field := [(bstr ":status", bstr "404"); (bstr "x-t", bstr "1")].

(* the hypotheses of the theorem are satisfiable, and the model does deliver well-formed blocks *)
Definition good_request : list field :=
  [(bstr ":method", bstr "POST"); (bstr ":scheme", bstr "https"); (bstr ":path", bstr "/"); (bstr ":authority", bstr "example.com");
   (bstr "content-length", bstr "3"); (bstr "te", bstr "trailers")].

Example C13_recv_nonvacuous :
  ~ KnownClass Request (good_request ++ [(bstr "connection", bstr "close")]) /\
  malformed_block Server Request HasContent false (good_request ++ [(bstr "connection", bstr "close")]) = true /\
  malformed_block Server Request HasContent false good_request = false /\
  delivers Request (model_recv Server Request false DEFAULT_MAX CLOmitted false V_all good_request) = true /\
  delivers Response (model_recv Client Response false DEFAULT_MAX CLOmitted true V_all [(bstr ":status", bstr "200")]) = true.
Proof.
  split; [intros [[H _]|[H _]]; discriminate|]. vm_compute. repeat split; reflexivity.
Qed.

Definition open_frames (pre : list (N * bool)) : Prop := Forall (fun d => snd d = false) pre.

(* the verdict of the code on a complete body (DATA frames, the last one with END_STREAM) *)
Definition length_verdict (cl : clen) (total : N) : bool :=
  match cl with
  | CLRemaining n => total =? n
  | CLHead => total =? 0
  | CLOmitted => true
  end.

Lemma sumN_app a b : sumN (a ++ b) = sumN a + sumN b.
Proof. unfold sumN. induction a as [|x a IH]; cbn [app fold_right]; lia. Qed.

(* Stream::dec_content_length takes one payload off the total that is still to come *)
Lemma dec_verdict cl l total :
  length_verdict cl (l + total) =
  match dec_content_length cl l with Some cl' => length_verdict cl' total | None => false end.
Proof.
  destruct cl as [| |n]; cbn [dec_content_length length_verdict]; [reflexivity| |].
  - destruct (l =? 0) eqn:E; cbn [length_verdict]; lia.
  - destruct (l <=? n) eqn:E; cbn [length_verdict]; lia.
Qed.

Lemma ensure_zero_verdict cl : ensure_content_length_zero cl = length_verdict cl 0.
Proof. destruct cl as [| |n]; [reflexivity..|apply N.eqb_sym]. Qed.

(* For every content-length state and every sequence of DATA frames, up to the first frame that
   carries END_STREAM (what follows it is not looked at): the end of the body is reported as a clean
   end exactly when the payload octets sum to the remaining content-length (no declared length:
   always; response to HEAD: only when no octet was sent), and as a stream error otherwise - never
   left open. *)
Theorem run_data_end :
  forall (cl : clen) (pre : list (N * bool)) (len : N) (rest : list (N * bool)),
    open_frames pre ->
    run_data cl (pre ++ (len, true) :: rest) =
      if length_verdict cl (sumN (map fst pre) + len) then BClean else BError.
Proof.
  intros cl pre len rest Hp. revert cl. induction Hp as [|[l e] pre He _ IH]; intros cl; cbn [app map fst run_data].
  - unfold recv_data_cl. change (sumN []) with 0. rewrite N.add_comm, dec_verdict.
    destruct (dec_content_length cl len) as [cl'|]; [|reflexivity].
    rewrite ensure_zero_verdict. destruct (length_verdict cl' 0); reflexivity.
  - cbn [snd] in He. subst e. unfold recv_data_cl. change (sumN (l :: map fst pre)) with (l + sumN (map fst pre)).
    rewrite <- N.add_assoc, dec_verdict.
    destruct (dec_content_length cl l) as [cl'|]; [|reflexivity]. apply IH.
Qed.

(* against the reference: with a declared length [Some n] the state is [CLRemaining n], without
   one [CLOmitted] *)
Definition cl_of (declared : option N) : clen :=
  match declared with Some n => CLRemaining n | None => CLOmitted end.

(* how a head sets the state (Recv::recv_headers), exactly as coded: a response to HEAD keeps
   [CLHead]; otherwise the first content-length value, whatever the status code (204 and 304
   included), becomes the remaining length; without a content-length field the state is kept -
   which is [CLOmitted], or what an earlier 1xx head of the same stream left behind.  The 204/304
   exemption only concerns END_STREAM on the HEADERS frame itself. *)
Theorem C13_length_head :
  forall cl eos b cl', head_content_length cl eos b = Some cl' ->
    (cl = CLHead /\ cl' = CLHead) \/
    (cl <> CLHead /\ first_value cl_name (b_fields b) = None /\ cl' = cl) \/
    (cl <> CLHead /\ exists v n, first_value cl_name (b_fields b) = Some v /\ parse_u64 v = Some n /\
        cl' = CLRemaining n /\ (eos = true -> n = 0 \/ status_not_204_304 (b_pseudo b) = false)).
Proof.
  intros cl eos b cl' H.
  assert (D : cl = CLHead \/ cl <> CLHead) by (destruct cl; [right|left|right]; congruence).
  destruct D as [-> | Hc]; [left; cbn in H; split; congruence|right].
  apply head_cl_spec in H; [|exact Hc].
  destruct (first_value cl_name (b_fields b)) as [v|]; [right|left; auto].
  destruct H as (n & Hn & -> & _ & He). split; [exact Hc|]. exists v, n.
  split; [reflexivity|]. split; [exact Hn|]. split; [reflexivity|].
  intros ->. cbn [andb] in He. destruct (0 <? n) eqn:E0; [right; exact He|left; lia].
Qed.

(* a body ended by a trailer section: the trailers are handed over only when nothing remains *)
Fixpoint after_open (cl : clen) (lens : list N) : option clen :=
  match lens with
  | [] => Some cl
  | l :: r => match dec_content_length cl l with Some cl' => after_open cl' r | None => None end
  end.

Lemma after_open_verdict cl lens cl' total :
  after_open cl lens = Some cl' -> length_verdict cl' total = length_verdict cl (sumN lens + total).
Proof.
  revert cl. induction lens as [|l r IH]; intros cl H; cbn [after_open] in H.
  - injection H as <-. reflexivity.
  - change (sumN (l :: r)) with (l + sumN r). rewrite <- N.add_assoc, dec_verdict.
    destruct (dec_content_length cl l) as [cl1|]; [exact (IH cl1 H)|discriminate].
Qed.

Lemma trailers_after_open cl lens cl' b :
  after_open cl lens = Some cl' ->
  (delivers Trailers (fst (recv_trailers cl' true b)) = true <-> length_verdict cl (sumN lens) = true).
Proof.
  intros H. unfold recv_trailers. cbn [negb].
  rewrite ensure_zero_verdict, (after_open_verdict _ lens cl' 0 H), N.add_0_r.
  destruct (length_verdict cl (sumN lens)); cbn [negb fst delivers]; split; auto.
Qed.

(* Send::check_headers accepts a header map exactly when it has no connection-specific field and no
   TE value other than "trailers" (the parts of 8.2.2).  Uppercase names, invalid octets and
   unknown or misplaced pseudo-header fields cannot be expressed in the types of the send API
   (http::HeaderMap / HeaderName / HeaderValue, Method, StatusCode, Uri). *)
Theorem C13_send :
  forall fields : list field,
    check_headers fields = true <->
    (existsb connection_specific fields = false /\ existsb bad_te fields = false).
Proof.
  intros fields. unfold check_headers.
  rewrite (existsb_ext (fun f => conn_specific_name (fst f)) connection_specific fields conn_specific_ref).
  rewrite (existsb_ext te_not_trailers bad_te fields te_ref).
  rewrite andb_true_iff, !negb_true_iff. reflexivity.
Qed.

(* HeaderMap iteration: the same fields, grouped by name, the values of one name in their order *)
Definition name_eq (n : list N) (f : field) : bool := list_N_eqb (fst f) n.

Lemma filter_filter_name n m fs :
  filter (name_eq n) (filter (name_eq m) fs) = if list_N_eqb m n then filter (name_eq n) fs else [].
Proof.
  induction fs as [|f r IH]; cbn [filter]; [destruct (list_N_eqb m n); reflexivity|].
  destruct (name_eq m f) eqn:Em; cbn [filter]; rewrite IH; unfold name_eq in *.
  - apply list_N_eqb_eq in Em. rewrite Em. destruct (list_N_eqb m n); reflexivity.
  - destruct (list_N_eqb m n) eqn:Emn; [|reflexivity]. apply list_N_eqb_eq in Emn. subst n.
    rewrite Em. reflexivity.
Qed.

(* the groups of the names of [fs] that are not in [seen], each group taken from [all]: the fields
   named [n] are there, once, exactly when [n] is such a name *)
Lemma filter_name_groups n all fs : forall seen,
  filter (name_eq n) (flat_map (fun m => filter (name_eq m) all) (names_dedup seen fs)) =
  if existsb (name_eq n) fs && negb (existsb (list_N_eqb n) seen) then filter (name_eq n) all else [].
Proof.
  induction fs as [|g r IH]; intros seen; [reflexivity|]. cbn [names_dedup existsb].
  destruct (name_eq n g) eqn:En; unfold name_eq in En; cbn [orb].
  - apply list_N_eqb_eq in En. rewrite En.
    destruct (existsb (list_N_eqb n) seen) eqn:E; [rewrite IH, E, andb_false_r; reflexivity|].
    cbn [flat_map negb andb]. rewrite filter_app, filter_filter_name, list_N_eqb_refl, IH.
    cbn [existsb]. rewrite list_N_eqb_refl, andb_false_r. apply app_nil_r.
  - destruct (existsb (list_N_eqb (fst g)) seen); [apply IH|].
    cbn [flat_map]. rewrite filter_app, filter_filter_name, En, IH. cbn [existsb app].
    destruct (list_N_eqb n (fst g)) eqn:H; [|reflexivity].
    apply list_N_eqb_eq in H. rewrite H, list_N_eqb_refl in En. discriminate.
Qed.

Lemma filter_name_hm_order n fs : filter (name_eq n) (hm_order fs) = filter (name_eq n) fs.
Proof.
  refine (eq_trans (filter_name_groups n fs fs []) _). cbn [existsb negb]. rewrite andb_true_r.
  destruct (existsb (name_eq n) fs) eqn:E; [reflexivity|].
  symmetry. exact (filter_none _ _ (proj1 (existsb_false _ _) E)).
Qed.

Lemma hm_order_in fs f : In f (hm_order fs) <-> In f fs.
Proof.
  assert (K : forall l, In f l <-> In f (filter (name_eq (fst f)) l)).
  { intros l. rewrite filter_In. unfold name_eq. rewrite list_N_eqb_refl. tauto. }
  rewrite K, filter_name_hm_order, <- K. reflexivity.
Qed.

Lemma existsb_hm_order p fs : existsb p (hm_order fs) = existsb p fs.
Proof.
  apply eq_true_iff_eq. rewrite !existsb_exists. setoid_rewrite hm_order_in. reflexivity.
Qed.

Lemma all_values_app n a b : all_values n (a ++ b) = all_values n a ++ all_values n b.
Proof. unfold all_values. rewrite filter_app, map_app. reflexivity. Qed.

Lemma all_values_hm_order n fs : all_values n (hm_order fs) = all_values n fs.
Proof. exact (f_equal (map snd) (filter_name_hm_order n fs)). Qed.

Lemma filter_opt_field s n v :
  filter (named s) (opt_field n v) = (if list_N_eqb (bstr n) (bstr s) then opt_field n v else []).
Proof. destruct v as [x|]; [cbn [opt_field filter]; unfold named; cbn [fst]|]; destruct (list_N_eqb _ _); reflexivity. Qed.

Lemma forallb_opt_field (q : field -> bool) n v : (forall x, q (bstr n, x) = true) -> forallb q (opt_field n v) = true.
Proof. intros H. destruct v as [x|]; [cbn [opt_field forallb]; rewrite H|]; reflexivity. Qed.

(* six optional fields with six different names *)
Lemma filter_pseudo_fields P h :
  h <> HField -> filter (named (pname h)) (pseudo_fields P) = opt_field (pname h) (ps_get h P).
Proof.
  intros Hh. unfold pseudo_fields. rewrite !filter_app, !filter_opt_field.
  destruct h; [congruence|..]; simpl; rewrite ?app_nil_r; reflexivity.
Qed.

Lemma pseudo_fields_spec P :
  pseudo_of (pseudo_fields P) = P /\ duplicated_pseudo (pseudo_fields P) = false /\
  existsb bad_field (pseudo_fields P) = false /\ forallb is_pseudo (pseudo_fields P) = true.
Proof.
  split; [|split; [|split]].
  - apply pseudo_ext. intros h Hh. rewrite (ps_get_pseudo_of h _ Hh), value_of_first. unfold values_of.
    rewrite (filter_pseudo_fields P h Hh). destruct (ps_get h P); reflexivity.
  - apply no_dup_pseudo. intros h Hh. unfold occurrences. rewrite (filter_pseudo_fields P h Hh).
    destruct (ps_get h P); cbn [opt_field length]; lia.
  - apply (forallb_existsb_false (fun f => negb (bad_field f))); [intros f; apply negb_true_iff|].
    unfold pseudo_fields. rewrite !forallb_app, !forallb_opt_field by reflexivity. reflexivity.
  - unfold pseudo_fields. rewrite !forallb_app, !forallb_opt_field by reflexivity. reflexivity.
Qed.

Lemma name_ok_not_pseudo f : name_ok (fst f) = true -> is_pseudo f = false.
Proof.
  unfold is_pseudo, name_ok. destruct (fst f) as [|c r]; [discriminate|].
  rewrite andb_true_iff. cbn [forallb]. rewrite andb_true_iff. intros (_ & H & _).
  unfold name_char_ok, in_range in H. lia.
Qed.

Definition representable (fields : list field) : Prop :=
  Forall (fun f => name_ok (fst f) = true /\ value_ok (snd f) = true) fields.

Lemma par_app ps regs :
  forallb is_pseudo ps = true -> existsb is_pseudo regs = false -> pseudo_after_regular (ps ++ regs) = false.
Proof.
  intros Hp Hr. induction ps as [|f r IH]; cbn [app].
  - destruct regs as [|g regs]; [reflexivity|]. cbn [existsb] in Hr. apply orb_false_iff in Hr.
    destruct Hr as (H1 & H2). cbn [pseudo_after_regular]. rewrite H1. exact H2.
  - cbn [forallb] in Hp. apply andb_true_iff in Hp. destruct Hp as (H1 & H2).
    cbn [pseudo_after_regular]. rewrite H1. exact (IH H2).
Qed.

Lemma pseudo_of_regular_tail ps regs : existsb is_pseudo regs = false -> pseudo_of (ps ++ regs) = pseudo_of ps.
Proof.
  intros Hr.
  assert (K : forall s, is_pseudo (bstr s, []) = true -> value_of s (ps ++ regs) = value_of s ps).
  { intros s Hs. pose proof (no_pseudo_has s regs Hr Hs) as H. rewrite has_value_of in H.
    rewrite value_of_app. destruct (value_of s regs); [discriminate|]. destruct (value_of s ps); reflexivity. }
  unfold pseudo_of. rewrite !K by reflexivity. reflexivity.
Qed.

(* the block the send API writes: pseudo-header fields of frame::headers::Iter, then the map *)
Lemma send_block_ok P fields :
  representable fields -> check_headers fields = true ->
  let w := pseudo_fields P ++ hm_order fields in
  bad_fields w = false /\ pseudo_of w = P /\ values_of "content-length" w = all_values cl_name fields.
Proof.
  intros Hr Hc w. subst w. destruct (pseudo_fields_spec P) as (P1 & P2 & P3 & P4).
  apply C13_send in Hc. destruct Hc as (C1 & C2).
  assert (Hreg : forall f, In f fields -> is_pseudo f = false /\ bad_field f = false).
  { intros f Hf. destruct (proj1 (Forall_forall _ _) Hr f Hf) as (A & B).
    pose proof (name_ok_not_pseudo f A) as Np. split; [exact Np|exact (regular_not_bad f Np A B)]. }
  assert (Hnp : existsb is_pseudo (hm_order fields) = false).
  { rewrite existsb_hm_order. apply existsb_false. intros f Hf. exact (proj1 (Hreg f Hf)). }
  split; [|split].
  - unfold bad_fields. rewrite !existsb_app, !existsb_hm_order, C1, C2, P3, (par_app _ _ P4 Hnp).
    rewrite (forallb_existsb_false _ _ _ (fun f Fp => proj1 (pseudo_not_regular_name f Fp)) P4).
    rewrite (forallb_existsb_false _ _ _ (fun f Fp => proj2 (pseudo_not_regular_name f Fp)) P4).
    rewrite (dup_regular_tail _ _ Hnp), P2, !orb_false_r.
    apply existsb_false. intros f Hf. exact (proj2 (Hreg f Hf)).
  - rewrite (pseudo_of_regular_tail _ _ Hnp). exact P1.
  - change (all_values cl_name (pseudo_fields P ++ hm_order fields) = all_values cl_name fields).
    rewrite all_values_app, all_values_hm_order. unfold all_values at 1. rewrite filter_none; [reflexivity|].
    intros f Hf. apply (not_named "content-length"). rewrite (proj1 (forallb_forall _ _) P4 f Hf). discriminate.
Qed.

(* KF-C13-3: Pseudo::request builds the pseudo-header fields from whatever parts the URI has *)
Definition known_send (fs : list field) : bool :=
  match value_of ":method" fs with
  | None => false
  | Some m =>
      if list_N_eqb m (bstr "CONNECT")
      then negb (has ":protocol" fs) && (has ":scheme" fs || has ":path" fs || negb (has ":authority" fs))
      else negb (has ":scheme" fs)
  end.
Definition KnownSend (fs : list field) : Prop := known_send fs = true.

Definition known_send_ps (P : pseudo) : bool :=
  match p_method P with
  | None => false
  | Some m =>
      if list_N_eqb m (bstr "CONNECT")
      then negb (is_some (p_protocol P)) && (is_some (p_scheme P) || is_some (p_path P) || negb (is_some (p_authority P)))
      else negb (is_some (p_scheme P))
  end.

Lemma known_send_pseudo fs : known_send fs = known_send_ps (pseudo_of fs).
Proof. unfold known_send, known_send_ps. rewrite !has_value_of. reflexivity. Qed.

Lemma lenN_lit_slash : (lenN (bstr "/") =? 0) = false. Proof. reflexivity. Qed.
Lemma lenN_lit_star : (lenN (bstr "*") =? 0) = false. Proof. reflexivity. Qed.

(* the :path of Pseudo::request *)
Definition request_path (method : list N) (u_path : option (list N)) : option (list N) :=
  if list_N_eqb method (bstr "CONNECT") then None
  else Some (match u_path with
             | Some p => if lenN p =? 0 then (if list_N_eqb method (bstr "OPTIONS") then bstr "*" else bstr "/") else p
             | None => if list_N_eqb method (bstr "OPTIONS") then bstr "*" else bstr "/"
             end).

Lemma request_path_spec method up :
  match request_path method up with
  | Some x => (lenN x =? 0) = false
  | None => list_N_eqb method (bstr "CONNECT") = true
  end.
Proof.
  unfold request_path. destruct (list_N_eqb method (bstr "CONNECT")); [reflexivity|].
  destruct up as [p|]; [destruct (lenN p =? 0) eqn:E0; [|exact E0]|].
  all: destruct (list_N_eqb method (bstr "OPTIONS")); [exact lenN_lit_star|exact lenN_lit_slash].
Qed.

Lemma request_pseudo_shape method S A up :
  let P := mk_pseudo (Some method) S A (request_path method up) None None in
  known_send_ps P = false -> bad_request_ps P = false.
Proof.
  unfold known_send_ps, bad_request_ps.
  cbn [p_method p_scheme p_authority p_path p_protocol p_status is_some value_is negb orb andb].
  rewrite (octets_bstr "CONNECT"). pose proof (request_path_spec method up) as Hp.
  destruct (list_N_eqb method (bstr "CONNECT")); cbn [andb]; [intros H; exact H|].
  destruct (request_path method up) as [x|]; [|discriminate]. cbn [value_is is_some negb orb].
  change (octets "") with (@nil N). rewrite list_N_eqb_nil, Hp. intros ->. reflexivity.
Qed.

Lemma send_request_pseudo_shape method us ua up h2 P :
  send_request_pseudo method us ua up h2 = Some P ->
  exists S A, P = mk_pseudo (Some method) S A (request_path method up) None None.
Proof.
  unfold send_request_pseudo, request_path.
  destruct (if list_N_eqb method (bstr "CONNECT") then None else us) as [s|];
    [|destruct ua as [a|]; [|destruct h2; [discriminate|]]]; intros [= <-]; eauto.
Qed.

Lemma request_block_ok method S A up fields w :
  representable fields -> check_headers fields = true ->
  pseudo_fields (mk_pseudo (Some method) S A (request_path method up) None None) ++ hm_order fields = w ->
  ~ KnownSend w ->
  bad_fields w = false /\ bad_request w = false /\ value_of ":method" w = Some method /\
  values_of "content-length" w = all_values cl_name fields.
Proof.
  intros Hr Hc <- Hk. set (P := mk_pseudo (Some method) S A (request_path method up) None None) in *.
  destruct (send_block_ok P fields Hr Hc) as (B1 & B2 & B3).
  split; [exact B1|]. split; [|split; [|exact B3]].
  - unfold KnownSend in Hk. rewrite known_send_pseudo in Hk. rewrite bad_request_pseudo. rewrite B2 in *.
    apply request_pseudo_shape. destruct (known_send_ps _); [congruence|reflexivity].
  - exact (f_equal p_method B2).
Qed.

(* For every method, URI (by its parts), version and representable header map: what send_request
   puts on the wire is not malformed as a request (8.2, 8.3, 8.3.1, 8.5) - except in the known class
   KF-C13-3, where Pseudo::request omits or adds :scheme/:path/:authority for unusual URI forms. *)
Theorem C13_send_except_known :
  forall (method : list N) (us ua up : option (list N)) (h2 : bool) (fields w : list field),
    representable fields ->
    send_request method us ua up h2 fields = Some w ->
    ~ KnownSend w ->
    malformed Server Request w = false.
Proof.
  intros method us ua up h2 fields w Hr Hs Hk. unfold send_request in Hs.
  destruct (send_request_pseudo method us ua up h2) as [P|] eqn:EP; [|discriminate].
  destruct (check_headers fields) eqn:Ec; [|discriminate]. injection Hs as Hw.
  apply send_request_pseudo_shape in EP as (S & A & ->).
  destruct (request_block_ok method S A up fields w Hr Ec Hw Hk) as (B1 & B2 & _).
  unfold malformed. rewrite B1, B2. reflexivity.
Qed.

(* push_request: additionally the method is safe and no content is declared (validate_request) *)
Theorem C13_send_push_except_known :
  forall (method : list N) (us ua up : option (list N)) (fields w : list field),
    representable fields ->
    send_push method us ua up fields = Some w ->
    ~ KnownSend w ->
    malformed Client PushedRequest w = false.
Proof.
  intros method us ua up fields w Hr Hs Hk. unfold send_push in Hs.
  destruct (validate_push method fields) eqn:Ev; [|discriminate].
  destruct (check_headers fields) eqn:Ec; [|discriminate]. injection Hs as Hw.
  destruct (request_block_ok method _ ua up fields w Hr Ec Hw Hk) as (B1 & B2 & B3 & B4).
  unfold malformed, bad_pushed_request. rewrite B1, B2. exact (validate_push_ok method fields w Ev B3 B4).
Qed.

Example C13_send_nonvacuous :
  exists w, send_request (bstr "GET") (Some (bstr "https")) (Some (bstr "example.com")) (Some (bstr "/x")) false
              [(bstr "accept", bstr "*/*"); (bstr "te", bstr "trailers")] = Some w /\ ~ KnownSend w /\
            send_request (bstr "GET") (Some (bstr "https")) (Some (bstr "example.com")) (Some (bstr "/x")) false
              [(bstr "te", bstr "trailers"); (bstr "te", bstr "gzip")] = None.
Proof.
  eexists. split; [vm_compute; reflexivity|]. split; [|vm_compute; reflexivity].
  unfold KnownSend. vm_compute. discriminate.
Qed.

(* C13 at the level of the stream machine that is compared with the implementation: what makes an
   event that [step] queues on frame [f] justified - a head or a trailer section by the block of [f]
   not being malformed unless in a known class, a DATA event by the length of [f] *)
Definition justified (c : config) (s : sstate) (f : frame) (e : event) : Prop :=
  match e, f with
  | EHead m, FHeaders fs eos v =>
      forall k hk, delivers k (Deliver m) = true ->
        (accounted k hk = true -> s_cl s <> CLHead) -> ~ KnownClass k fs ->
        malformed_block (c_role c) k hk eos fs = false
  | ETrailers _, FHeaders fs eos v =>
      forall hk, ~ KnownClass Trailers fs -> malformed_block (c_role c) Trailers hk eos fs = false
  | EData n, FData len _ => n = len
  | _, _ => False
  end.

Definition justified_push (c : config) (f : frame) (rq : request) : Prop :=
  match f with
  | FPush fs v => c_role c = Client /\
      forall hk eos, malformed_block Client PushedRequest hk eos fs = false
  | _ => False
  end.

Lemma recv_push_cases v b : recv_push v b = StreamError \/ exists rq, recv_push v b = Deliver (MPushed rq).
Proof.
  unfold recv_push. destruct (b_over b); [auto|].
  destruct (convert_request v (b_pseudo b) (b_fields b)) as [rq|]; [|auto].
  destruct (validate_push (rq_method rq) (b_fields b)); eauto.
Qed.

Definition queues (s : sstate) : list event * list request := (s_queue s, s_pushq s).

Lemma queues_stream_error c s b : queues (stream_error c s b) = queues s.
Proof. unfold stream_error. destruct (is_client c && b); reflexivity. Qed.

Lemma queues_codec_reset c s : queues (codec_reset c s) = queues s.
Proof. unfold codec_reset. destruct (s_recv s), (is_client c); reflexivity. Qed.

Lemma queued c s f s' newq newp :
  queues s' = (s_queue s ++ newq, s_pushq s ++ newp) ->
  Forall (justified c s f) newq -> Forall (justified_push c f) newp ->
  exists newq newp,
    s_queue s' = s_queue s ++ newq /\ s_pushq s' = s_pushq s ++ newp /\
    Forall (justified c s f) newq /\ Forall (justified_push c f) newp.
Proof. intros [= Hq Hp] Jq Jp. exists newq, newp. auto. Qed.

(* "unchanged": closes a goal of [C13_stream_step] in a branch of [step] that queued nothing, by
   [queued] with two empty lists *)
Ltac unch :=
  apply (queued _ _ _ _ [] []);
  [rewrite ?queues_stream_error, ?queues_codec_reset, !app_nil_r; reflexivity|constructor|constructor].

Theorem C13_stream_step :
  forall (c : config) (s : sstate) (f : frame),
  exists newq newp,
    s_queue (step c s f) = s_queue s ++ newq /\ s_pushq (step c s f) = s_pushq s ++ newp /\
    Forall (justified c s f) newq /\ Forall (justified_push c f) newp.
Proof.
  intros c s f. unfold step. destruct (s_conn s); [unch|].
  destruct f as [fs eos v|len eos|fs v].
  - unfold step_headers. destruct (load (c_max c) fs) as [b| | |] eqn:El; [|unch..].
    (* RAwait and RStreaming below; RClosed, RGone, RDone, RError queue nothing *)
    destruct (s_recv s); [| |destruct (is_client c); [|destruct eos]; unch|unch..].
    + (* awaiting headers *)
      destruct (recv_head (c_role c) (c_ext c) (s_cl s) eos v b) as [[o cl'] opened] eqn:Eh.
      destruct o as [m| | | |]; [|unch|unch|destruct eos; unch|unch].
      apply (queued _ _ _ _ [EHead m] []); [rewrite app_nil_r; reflexivity| |constructor].
      constructor; [|constructor]. intros k hk Hd Hacc Hk.
      apply (C13_head (c_role c) k hk (c_ext c) (c_max c) (s_cl s) eos v fs Hk Hacc).
      unfold model_head, of_load. rewrite El, Eh. exact Hd.
    + (* streaming: a trailer section *)
      destruct (recv_trailers_cases (s_cl s) eos b) as [E|(_ & E)]; rewrite E; [unch|].
      apply (queued _ _ _ _ [ETrailers (hm_order (b_fields b))] []);
        [rewrite app_nil_r; reflexivity| |constructor].
      constructor; [|constructor]. intros hk Hk. apply (C13_trailers (c_role c) (c_max c) (s_cl s) eos fs hk Hk).
      unfold model_trailers, of_load. rewrite El, E. reflexivity.
  - (* only RStreaming, the second state, can queue *)
    unfold step_data. destruct (s_recv s); [unch| |destruct (is_client c); unch|unch..].
    destruct (recv_data_cl (s_cl s) len eos) as [cl' closed ev|]; [|unch].
    destruct ev; [|unch].
    apply (queued _ _ _ _ [EData len] []); [rewrite app_nil_r; reflexivity|repeat constructor|constructor].
  - unfold step_push. destruct (load (c_max c) fs) as [b| | |] eqn:El; [|unch..].
    (* a server refuses every PUSH_PROMISE *)
    destruct (is_client c) eqn:Ec; cbn [negb]; [|destruct (s_recv (next_promised s)); unch].
    destruct (recv_push_cases v b) as [E|(rq & E)]; rewrite E; [destruct (s_recv (next_promised s)); unch|].
    assert (J : justified_push c (FPush fs v) rq).
    { split; [unfold is_client in Ec; destruct (c_role c); [reflexivity|discriminate]|].
      intros hk eos. apply (C13_pushed Client (c_max c) v fs hk eos).
      unfold model_push, of_load. rewrite El, E. reflexivity. }
    (* RAwait and RStreaming queue the promised request, the other states nothing *)
    destruct (s_recv (next_promised s)); [| |unch..].
    all: apply (queued _ _ _ _ [] [rq]); [rewrite app_nil_r; reflexivity|constructor|].
    all: constructor; [exact J|constructor].
Qed.
