(* The prefix-integer decoder: the reference decoder of Ref/Rfc7541Int.v decides the relation
   [int_repr_L] (RFC 7541 5.1); the model of h2's `decode_int` (Model/HpackInt.v) is that decoder
   with 4 continuation octets, and every outcome of it is characterised by the shape of the input. *)
From H2V Require Import Base.Tac Base.Bytes Ref.Rfc7541Int Model.HpackInt.
Local Open Scope N_scope.

Fixpoint N_upto (n : nat) : list N :=
  match n with O => [] | S n' => N_upto n' ++ [N.of_nat n'] end.

Lemma N_upto_In n b : b < N.of_nat n -> In b (N_upto n).
Proof.
  induction n as [|n IH]; intros Hb.
  - lia.
  - cbn [N_upto]. apply in_or_app.
    destruct (N.eq_dec b (N.of_nat n)) as [->|Hne].
    + right; left; reflexivity.
    + left; apply IH; lia.
Qed.

Lemma byte_sweep (P : N -> bool) :
  forallb P (N_upto 256) = true -> forall b, b < 256 -> P b = true.
Proof.
  intros H b Hb. rewrite forallb_forall in H. apply H. apply N_upto_In.
  change (N.of_nat 256) with 256. exact Hb.
Qed.

Definition octets (bs : list N) : Prop := Forall (fun b => b < 256) bs.

Lemma octets_cons b bs : octets (b :: bs) <-> b < 256 /\ octets bs.
Proof. apply Forall_cons_iff. Qed.

Lemma octets_app a b : octets (a ++ b) <-> octets a /\ octets b.
Proof. apply Forall_app. Qed.

Lemma bytes_ok_octets bs : bytes_ok bs = true <-> octets bs.
Proof.
  unfold bytes_ok, octets, byte_ok. rewrite forallb_forall, Forall_forall.
  split; intros H x Hx; specialize (H x Hx); lia.
Qed.

Lemma land_127 b : N.land b 127 = b mod 128.
Proof. change 127 with (N.ones 7). apply N.land_ones. Qed.

Lemma land_128 b : b < 256 -> N.land b 128 = if b <? 128 then 0 else 128.
Proof.
  intros Hb. apply N.eqb_eq.
  apply (byte_sweep (fun b => N.land b 128 =? (if b <? 128 then 0 else 128))); [|exact Hb].
  vm_compute. reflexivity.
Qed.

Lemma int_mask_pow p : 1 <= p <= 8 -> int_mask p = 2 ^ p - 1.
Proof.
  intros Hp. unfold int_mask.
  destruct (p =? 8) eqn:E.
  - apply N.eqb_eq in E. subst p. reflexivity.
  - rewrite N.shiftl_1_l. reflexivity.
Qed.

Lemma land_mask b p : 1 <= p <= 8 -> N.land b (int_mask p) = b mod 2 ^ p.
Proof.
  intros Hp. rewrite int_mask_pow by exact Hp.
  rewrite <- N.land_ones, N.ones_equiv. f_equal. lia.
Qed.

Lemma pow2_pos p : 0 < 2 ^ p.
Proof. apply N.neq_0_lt_0. apply N.pow_nonzero. lia. Qed.

Lemma mod_pow2_ones b p : (b mod 2 ^ p <? 2 ^ p - 1) = false -> b mod 2 ^ p = 2 ^ p - 1.
Proof. pose proof (N.mod_upper_bound b (2 ^ p)). pose proof (pow2_pos p). lia. Qed.

Lemma cont_repr_nonempty v bs : cont_repr v bs -> bs <> [].
Proof. intros H; inversion H; discriminate. Qed.

Lemma cont_repr_octets v bs : cont_repr v bs -> octets bs.
Proof.
  induction 1 as [v Hv|lo hi bs Hlo _ IH]; apply octets_cons; split; try lia; [constructor|exact IH].
Qed.

Lemma ref_decode_cont_sound L : forall bs v rest,
  ref_decode_cont L bs = Some (v, rest) ->
  exists enc, bs = enc ++ rest /\ cont_repr v enc /\ (length enc <= L)%nat.
Proof.
  induction L as [|L IH]; intros bs v rest H; cbn [ref_decode_cont] in H.
  - discriminate.
  - destruct bs as [|b t]; [discriminate|].
    destruct (b <? 128) eqn:E1.
    + inversion H; subst. exists [v]. split; [reflexivity|]. split.
      * constructor. lia.
      * cbn [length]. lia.
    + destruct (b <? 256) eqn:E2; [|discriminate].
      destruct (ref_decode_cont L t) as [[v' r']|] eqn:E3; [|discriminate].
      inversion H; subst.
      destruct (IH _ _ _ E3) as (enc & -> & Hc & Hl).
      exists (b :: enc). split; [reflexivity|]. split.
      * replace b with (128 + (b - 128)) at 2 by lia.
        apply cont_more; [lia|exact Hc].
      * cbn [length]. lia.
Qed.

Lemma ref_decode_cont_complete v enc : cont_repr v enc ->
  forall L rest, (length enc <= L)%nat -> ref_decode_cont L (enc ++ rest) = Some (v, rest).
Proof.
  induction 1 as [v Hv|lo hi bs Hlo Hc IH]; intros L rest Hl;
    (destruct L as [|L]; [cbn [length] in Hl; lia|]); cbn [ref_decode_cont app].
  - replace (v <? 128) with true by lia. reflexivity.
  - replace (128 + lo <? 128) with false by lia.
    replace (128 + lo <? 256) with true by lia.
    rewrite IH by (cbn [length] in Hl; lia).
    f_equal. f_equal. lia.
Qed.

Lemma cont_repr_det v1 enc1 : cont_repr v1 enc1 ->
  forall v2 enc2 r1 r2, cont_repr v2 enc2 -> enc1 ++ r1 = enc2 ++ r2 ->
  v1 = v2 /\ enc1 = enc2 /\ r1 = r2.
Proof.
  intros H1 v2 enc2 r1 r2 H2 E.
  pose proof (ref_decode_cont_complete _ _ H1 (length enc1 + length enc2) r1 ltac:(lia)) as A.
  pose proof (ref_decode_cont_complete _ _ H2 (length enc1 + length enc2) r2 ltac:(lia)) as B.
  rewrite E in A. rewrite A in B. inversion B; subst.
  split; [reflexivity|]. split; [|reflexivity].
  apply app_inv_tail in E. exact E.
Qed.

Lemma divmod_first p hi low : low < 2 ^ p ->
  (hi * 2 ^ p + low) / 2 ^ p = hi /\ (hi * 2 ^ p + low) mod 2 ^ p = low.
Proof.
  intros Hl. pose proof (pow2_pos p) as Hp.
  split.
  - rewrite N.div_add_l by lia. rewrite N.div_small by exact Hl. lia.
  - rewrite N.add_comm, N.mod_add by lia. apply N.mod_small. exact Hl.
Qed.

Theorem ref_decode_int_sound L p b t v rest :
  ref_decode_int L p (b :: t) = Some (v, rest) ->
  exists enc, b :: t = enc ++ rest /\ int_repr_L L p (b / 2 ^ p) v enc.
Proof.
  pose proof (pow2_pos p) as Hp.
  unfold ref_decode_int. intros H.
  assert (Hb : b = (b / 2 ^ p) * 2 ^ p + b mod 2 ^ p).
  { rewrite N.mul_comm. apply N.div_mod. lia. }
  destruct (b mod 2 ^ p <? 2 ^ p - 1) eqn:E.
  - inversion H; subst. exists [b]. split; [reflexivity|]. split; [|cbn [length]; lia].
    rewrite Hb at 3. constructor. lia.
  - apply mod_pow2_ones in E. rewrite E in Hb.
    destruct (ref_decode_cont L t) as [[v' r']|] eqn:E2; [|discriminate].
    inversion H; subst.
    destruct (ref_decode_cont_sound _ _ _ _ E2) as (enc & -> & Hc & Hl).
    exists (b :: enc). split; [reflexivity|]. split; [|cbn [length]; lia].
    rewrite Hb at 2. constructor. exact Hc.
Qed.

Theorem ref_decode_int_complete L p hi v enc rest :
  int_repr_L L p hi v enc ->
  ref_decode_int L p (enc ++ rest) = Some (v, rest) /\
  exists b t, enc = b :: t /\ b / 2 ^ p = hi.
Proof.
  pose proof (pow2_pos p) as Hp.
  intros [H Hl]. inversion H as [v' Hv|v' bs Hc]; subst; cbn [app]; unfold ref_decode_int.
  - destruct (divmod_first p hi v) as [Hd ->]; [lia|].
    replace (v <? 2 ^ p - 1) with true by lia. eauto.
  - destruct (divmod_first p hi (2 ^ p - 1)) as [Hd ->]; [lia|].
    replace (2 ^ p - 1 <? 2 ^ p - 1) with false by lia.
    rewrite (ref_decode_cont_complete _ _ Hc) by (cbn [length] in Hl; lia). eauto.
Qed.

Theorem ref_decode_int_spec L p b t v rest :
  ref_decode_int L p (b :: t) = Some (v, rest) <->
  exists enc, b :: t = enc ++ rest /\ int_repr_L L p (b / 2 ^ p) v enc.
Proof.
  split.
  - apply ref_decode_int_sound.
  - intros (enc & E & H). rewrite E.
    apply (ref_decode_int_complete L p _ v enc rest H).
Qed.

Lemma ref_decode_int_nil L p : ref_decode_int L p [] = None.
Proof. reflexivity. Qed.

(* the relation is functional and prefix-free *)
Lemma int_repr_det p hi1 hi2 v1 v2 enc1 enc2 r1 r2 :
  int_repr p hi1 v1 enc1 -> int_repr p hi2 v2 enc2 -> enc1 ++ r1 = enc2 ++ r2 ->
  v1 = v2 /\ enc1 = enc2 /\ r1 = r2.
Proof.
  intros H1 H2 E.
  assert (A : int_repr_L (length enc1 + length enc2) p hi1 v1 enc1) by (split; [exact H1|lia]).
  assert (B : int_repr_L (length enc1 + length enc2) p hi2 v2 enc2) by (split; [exact H2|lia]).
  destruct (ref_decode_int_complete _ _ _ _ _ r1 A) as [A' _].
  destruct (ref_decode_int_complete _ _ _ _ _ r2 B) as [B' _].
  rewrite E in A'. rewrite A' in B'. inversion B'; subst.
  split; [reflexivity|]. split; [|reflexivity].
  apply app_inv_tail in E. exact E.
Qed.

Lemma int_repr_L_mono L L' p hi v enc : (L <= L')%nat -> int_repr_L L p hi v enc -> int_repr_L L' p hi v enc.
Proof. intros Hle [H Hl]. split; [exact H|lia]. Qed.

Lemma int_repr_octets p hi v enc : p <= 8 -> hi < 2 ^ (8 - p) -> int_repr p hi v enc -> octets enc.
Proof.
  intros Hp Hhi H.
  assert (H256 : 2 ^ (8 - p) * 2 ^ p = 256).
  { rewrite <- N.pow_add_r. replace (8 - p + p) with 8 by lia. reflexivity. }
  pose proof (pow2_pos p).
  inversion H as [v' Hv|v' bs Hc]; subst; apply octets_cons; (split; [nia|]).
  - constructor.
  - exact (cont_repr_octets _ _ Hc).
Qed.

Lemma encode_cont_ok : forall f v, v < 2 ^ N.of_nat f -> (1 <= f)%nat -> cont_repr v (encode_cont f v).
Proof.
  induction f as [|f IH]; intros v Hv Hf; [lia|].
  cbn [encode_cont].
  destruct (v <? 128) eqn:E.
  - constructor. lia.
  - assert (Hdm : v = v mod 128 + 128 * (v / 128)).
    { rewrite N.add_comm. apply N.div_mod. lia. }
    rewrite Hdm at 1.
    pose proof (N.mod_upper_bound v 128 ltac:(lia)) as Hm.
    apply cont_more; [exact Hm|].
    rewrite Nat2N.inj_succ, N.pow_succ_r' in Hv.
    pose proof (pow2_pos (N.of_nat f)) as Hp.
    destruct f as [|f'].
    + cbn in Hv. lia.
    + apply IH; [|lia]. lia.
Qed.

Lemma log2_fuel v : v < 2 ^ N.of_nat (S (N.to_nat (N.log2 v))).
Proof.
  rewrite Nat2N.inj_succ, N2Nat.id.
  destruct (N.eq_dec v 0) as [->|Hne].
  - cbn. lia.
  - apply N.log2_spec. lia.
Qed.

Theorem encode_int_repr p hi v : int_repr p hi v (encode_int p hi v).
Proof.
  unfold encode_int. destruct (v <? 2 ^ p - 1) eqn:E.
  - constructor. lia.
  - replace v with (2 ^ p - 1 + (v - (2 ^ p - 1))) at 1 by lia.
    constructor. apply encode_cont_ok; [apply log2_fuel|lia].
Qed.

(* length of the canonical continuation: number of base-128 digits *)
Lemma encode_cont_length : forall f k v, v < 128 ^ N.of_nat k -> (1 <= k)%nat ->
  (length (encode_cont f v) <= k)%nat.
Proof.
  induction f as [|f IH]; intros k v Hv Hk; [cbn [encode_cont length]; lia|].
  cbn [encode_cont]. destruct (v <? 128) eqn:E; cbn [length]; [lia|].
  destruct k as [|[|k]]; [lia|cbn in Hv; lia|].
  apply le_n_S. apply IH; [|lia].
  rewrite Nat2N.inj_succ, N.pow_succ_r' in Hv.
  assert (0 < 128 ^ N.of_nat (S k)) by (apply N.neq_0_lt_0; apply N.pow_nonzero; lia).
  lia.
Qed.

(* classification of an octet string as a continuation of at most L octets *)

Inductive cont_class :=
| CDone (v : N) (rest : list N)      (* complete: value and what follows *)
| CShort                             (* every octet present announces another one, fewer than L *)
| CLong.                             (* L octets all announce another one *)

Fixpoint classify (L : nat) (bs : list N) : cont_class :=
  match L with
  | O => CLong
  | S L' =>
    match bs with
    | [] => CShort
    | b :: t =>
      if b <? 128 then CDone b t
      else match classify L' t with
           | CDone v rest => CDone ((b - 128) + 128 * v) rest
           | c => c
           end
    end
  end.

Lemma classify_ref L : forall bs, octets bs ->
  ref_decode_cont L bs = match classify L bs with CDone v rest => Some (v, rest) | _ => None end.
Proof.
  induction L as [|L IH]; intros bs Hb; cbn [ref_decode_cont classify].
  - reflexivity.
  - destruct bs as [|b t]; [reflexivity|].
    apply octets_cons in Hb. destruct Hb as [Hb Ht].
    destruct (b <? 128) eqn:E; [reflexivity|].
    replace (b <? 256) with true by lia.
    rewrite (IH t Ht). destruct (classify L t); reflexivity.
Qed.

Definition h2_int_limit : nat := 4.        (* MAX_BYTES - 1 continuation octets *)

Lemma loop_classify : forall L bs k shift ret,
  octets bs -> N.of_nat L + k = MAX_BYTES -> (1 <= L)%nat ->
  decode_int_loop k shift ret bs =
  match classify L bs with
  | CDone v rest => ROk (ret + v * 2 ^ shift) rest
  | CShort => RErr (NeedMore IntegerUnderflow)
  | CLong => RErr IntegerOverflow
  end.
Proof.
  induction L as [|L IH]; intros bs k shift ret Hb Hk HL; [lia|].
  destruct bs as [|b t]; cbn [decode_int_loop classify]; [reflexivity|].
  apply octets_cons in Hb. destruct Hb as [Hb Ht].
  unfold VARINT_FLAG, VARINT_MASK, MAX_BYTES in *.
  rewrite (land_128 b Hb), land_127, N.shiftl_mul_pow2.
  destruct (b <? 128) eqn:E.
  - rewrite N.mod_small by lia. reflexivity.
  - change (128 =? 0) with false. cbv iota. destruct (k + 1 =? 5) eqn:E5.
    + assert (L = O) by lia. subst L. reflexivity.
    + rewrite (IH t (k + 1) (shift + 7) _ Ht) by lia.
      replace (b mod 128) with (b - 128) by lia.
      destruct (classify L t) as [v rest| |]; try reflexivity.
      f_equal. rewrite N.pow_add_r. change (2 ^ 7) with 128. lia.
Qed.

Lemma decode_int_nil p : 1 <= p <= 8 -> decode_int p [] = RErr (NeedMore IntegerUnderflow).
Proof. intros Hp. unfold decode_int. replace ((p <? 1) || (8 <? p)) with false by lia. reflexivity. Qed.

Lemma invalid_prefix p bs : p < 1 \/ 8 < p -> decode_int p bs = RErr InvalidIntegerPrefix.
Proof. intros Hp. unfold decode_int. replace ((p <? 1) || (8 <? p)) with true by lia. reflexivity. Qed.

(* every outcome of decode_int, by the shape of the input *)
Lemma decode_int_cases p b t : 1 <= p <= 8 -> octets (b :: t) ->
  decode_int p (b :: t) =
  if b mod 2 ^ p <? 2 ^ p - 1 then ROk (b mod 2 ^ p) t
  else match classify h2_int_limit t with
       | CDone v rest => ROk (2 ^ p - 1 + v) rest
       | CShort => RErr (NeedMore IntegerUnderflow)
       | CLong => RErr IntegerOverflow
       end.
Proof.
  intros Hp Hb. apply octets_cons in Hb. destruct Hb as [Hb Ht].
  unfold decode_int. replace ((p <? 1) || (8 <? p)) with false by lia.
  rewrite land_mask by exact Hp. rewrite int_mask_pow by exact Hp.
  destruct (b mod 2 ^ p <? 2 ^ p - 1) eqn:E; [reflexivity|].
  rewrite (loop_classify h2_int_limit t 1 0 _ Ht) by (unfold h2_int_limit, MAX_BYTES; lia).
  rewrite (mod_pow2_ones b p E). destruct (classify h2_int_limit t); try reflexivity.
  rewrite N.pow_0_r, N.mul_1_r. reflexivity.
Qed.

Definition rd_opt {A} (r : rd A) : option (A * list N) :=
  match r with ROk v rest => Some (v, rest) | RErr _ => None end.

Lemma rd_opt_ok {A} (r : rd A) v rest : rd_opt r = Some (v, rest) <-> r = ROk v rest.
Proof. destruct r; split; intros H; inversion H; reflexivity. Qed.

Theorem decode_int_ref p bs : 1 <= p <= 8 -> octets bs ->
  rd_opt (decode_int p bs) = ref_decode_int h2_int_limit p bs.
Proof.
  intros Hp Hb. destruct bs as [|b t]; [rewrite decode_int_nil by exact Hp; reflexivity|].
  rewrite (decode_int_cases p b t Hp Hb). unfold ref_decode_int.
  apply octets_cons in Hb. rewrite (classify_ref _ _ (proj2 Hb)).
  destruct (b mod 2 ^ p <? 2 ^ p - 1); [reflexivity|].
  destruct (classify h2_int_limit t); reflexivity.
Qed.

(* decode_int accepts exactly the RFC representations of at most 1 + 4 octets *)
Theorem decode_int_spec p bs v rest : 1 <= p <= 8 -> octets bs ->
  (decode_int p bs = ROk v rest <->
   exists b t enc, bs = b :: t /\ bs = enc ++ rest /\ int_repr_L h2_int_limit p (b / 2 ^ p) v enc).
Proof.
  intros Hp Hb. rewrite <- rd_opt_ok, (decode_int_ref p bs Hp Hb).
  destruct bs as [|b t].
  - split; [discriminate|]. intros (b & t & enc & E & _). discriminate.
  - rewrite ref_decode_int_spec. split.
    + intros (enc & E & H). exists b, t, enc. auto.
    + intros (b' & t' & enc & E1 & E2 & H). inversion E1; subst. exists enc. auto.
Qed.

Lemma classify_done_app L : forall bs v rest x,
  classify L bs = CDone v rest -> classify L (bs ++ x) = CDone v (rest ++ x).
Proof.
  induction L as [|L IH]; intros bs v rest x H; cbn [classify] in *; [discriminate|].
  destruct bs as [|b t]; [discriminate|]. cbn [app].
  destruct (b <? 128) eqn:E.
  - inversion H; subst. reflexivity.
  - destruct (classify L t) as [v' r'| |] eqn:E2; try discriminate.
    inversion H; subst. rewrite (IH _ _ _ x E2). reflexivity.
Qed.

Lemma classify_long_app L : forall bs x, classify L bs = CLong -> classify L (bs ++ x) = CLong.
Proof.
  induction L as [|L IH]; intros bs x H; cbn [classify] in *; [reflexivity|].
  destruct bs as [|b t]; [discriminate|]. cbn [app].
  destruct (b <? 128) eqn:E; [discriminate|].
  destruct (classify L t) as [v' r'| |] eqn:E2; try discriminate.
  rewrite (IH _ x E2). reflexivity.
Qed.

Lemma classify_spec L : forall bs,
  match classify L bs with
  | CDone _ _ => ~ Forall (fun b => 128 <= b) (firstn L bs)
  | CShort => (length bs < L)%nat /\ Forall (fun b => 128 <= b) bs
  | CLong => (L <= length bs)%nat /\ Forall (fun b => 128 <= b) (firstn L bs)
  end.
Proof.
  induction L as [|L IH]; intros bs; cbn [classify firstn].
  - split; [lia|constructor].
  - destruct bs as [|b t]; cbn [length].
    + split; [lia|constructor].
    + destruct (b <? 128) eqn:E; [|specialize (IH t); destruct (classify L t)];
        rewrite Forall_cons_iff; intuition lia.
Qed.

Lemma classify_short L bs : classify L bs = CShort <->
  (length bs < L)%nat /\ Forall (fun b => 128 <= b) bs.
Proof.
  pose proof (classify_spec L bs) as H. split.
  - intros E. rewrite E in H. exact H.
  - intros [Hl Hf]. destruct (classify L bs); [|reflexivity|lia].
    rewrite firstn_all2 in H by lia. contradiction.
Qed.

Lemma classify_long L bs : classify L bs = CLong <->
  (L <= length bs)%nat /\ Forall (fun b => 128 <= b) (firstn L bs).
Proof.
  pose proof (classify_spec L bs) as H. split.
  - intros E. rewrite E in H. exact H.
  - intros [Hl Hf]. destruct (classify L bs); [contradiction|lia|reflexivity].
Qed.

Lemma decode_int_err p b t : 1 <= p <= 8 -> octets (b :: t) ->
  (decode_int p (b :: t) = RErr (NeedMore IntegerUnderflow) <->
   b mod 2 ^ p = 2 ^ p - 1 /\ classify h2_int_limit t = CShort) /\
  (decode_int p (b :: t) = RErr IntegerOverflow <->
   b mod 2 ^ p = 2 ^ p - 1 /\ classify h2_int_limit t = CLong).
Proof.
  intros Hp Hb. rewrite (decode_int_cases p b t Hp Hb).
  destruct (b mod 2 ^ p <? 2 ^ p - 1) eqn:E.
  - split; (split; [discriminate|lia]).
  - apply mod_pow2_ones in E.
    destruct (classify h2_int_limit t); split; split;
      try discriminate; try (intros [_ H]; discriminate H); auto.
Qed.

(* NeedMore(IntegerUnderflow): exactly the truncated inputs -- nothing, or an all-ones prefix
   followed by at most 3 octets that all announce a successor *)
Theorem decode_int_need_more p bs : 1 <= p <= 8 -> octets bs ->
  (decode_int p bs = RErr (NeedMore IntegerUnderflow) <->
   bs = [] \/
   exists b t, bs = b :: t /\ b mod 2 ^ p = 2 ^ p - 1 /\ (length t < h2_int_limit)%nat /\
               Forall (fun c => 128 <= c) t).
Proof.
  intros Hp Hb. destruct bs as [|b t].
  - rewrite decode_int_nil by exact Hp. split; auto.
  - rewrite (proj1 (decode_int_err p b t Hp Hb)), classify_short. split.
    + intros H. right. exists b, t. auto.
    + intros [H|(b' & t' & H & Hm)]; [discriminate|]. inversion H; subst. exact Hm.
Qed.

(* IntegerOverflow: exactly when the all-ones prefix is followed by 4 octets with bit 7 set
   (a fifth continuation octet is announced), whatever comes after *)
Theorem decode_int_overflow p bs : 1 <= p <= 8 -> octets bs ->
  (decode_int p bs = RErr IntegerOverflow <->
   exists b t, bs = b :: t /\ b mod 2 ^ p = 2 ^ p - 1 /\ (h2_int_limit <= length t)%nat /\
               Forall (fun c => 128 <= c) (firstn h2_int_limit t)).
Proof.
  intros Hp Hb. destruct bs as [|b t].
  - rewrite decode_int_nil by exact Hp. split; [discriminate|]. intros (b & t & H & _). discriminate.
  - rewrite (proj2 (decode_int_err p b t Hp Hb)), classify_long. split.
    + intros H. exists b, t. auto.
    + intros (b' & t' & H & Hm). inversion H; subst. exact Hm.
Qed.

Lemma classify_completed L c : c < 128 -> forall t, (length t < L)%nat -> Forall (fun b => 128 <= b) t ->
  exists v, classify L (t ++ [c]) = CDone v [].
Proof.
  intros Hc. induction L as [|L IH]; intros t Hl Hf; [lia|].
  destruct t as [|x t]; cbn [app classify].
  - replace (c <? 128) with true by lia. eauto.
  - inversion Hf; subst. replace (x <? 128) with false by lia.
    destruct (IH t) as [v ->]; [cbn [length] in Hl; lia|assumption|]. eauto.
Qed.

(* ... and such an input is a proper prefix of a valid representation: one more octet < 128
   completes it *)
Theorem decode_int_need_more_completable p bs c : 1 <= p <= 8 -> octets bs -> c < 128 -> bs <> [] ->
  decode_int p bs = RErr (NeedMore IntegerUnderflow) ->
  exists v, decode_int p (bs ++ [c]) = ROk v [].
Proof.
  intros Hp Hb Hc Hne H.
  apply (decode_int_need_more p bs Hp Hb) in H.
  destruct H as [H|(b & t & -> & Hm & Hl & Hf)]; [contradiction|].
  assert (Ho : octets ((b :: t) ++ [c])).
  { apply octets_app. split; [exact Hb|]. apply octets_cons. split; [lia|constructor]. }
  cbn [app] in *. rewrite (decode_int_cases p b (t ++ [c]) Hp Ho).
  replace (b mod 2 ^ p <? 2 ^ p - 1) with false by lia.
  destruct (classify_completed h2_int_limit c Hc t Hl Hf) as [v ->]. eauto.
Qed.

(* all but the last octet of a continuation have bit 7 set *)
Lemma cont_repr_firstn v bs : cont_repr v bs ->
  forall n, (n < length bs)%nat -> Forall (fun b => 128 <= b) (firstn n bs).
Proof.
  induction 1 as [v Hv|lo hi bs Hlo Hc IH]; intros n Hn; cbn [length] in Hn.
  - replace n with O by lia. constructor.
  - destruct n as [|n]; [constructor|]. cbn [firstn]. constructor; [lia|]. apply IH. lia.
Qed.

Theorem decode_int_truncated p hi v enc n : 1 <= p <= 8 -> octets enc ->
  int_repr_L h2_int_limit p hi v enc -> (n < length enc)%nat ->
  decode_int p (firstn n enc) = RErr (NeedMore IntegerUnderflow).
Proof.
  intros Hp Ho [H Hl] Hn.
  apply decode_int_need_more; [exact Hp| |].
  { rewrite <- (firstn_skipn n enc) in Ho. apply octets_app in Ho. apply Ho. }
  destruct n as [|n]; [left; reflexivity|right].
  inversion H as [v' Hv|v' bs Hc]; subst; cbn [length] in Hn, Hl; [lia|].
  cbn [firstn]. eexists _, _. split; [reflexivity|].
  pose proof (pow2_pos p). destruct (divmod_first p hi (2 ^ p - 1)) as [_ Hm]; [lia|].
  split; [exact Hm|]. split.
  - rewrite firstn_length. unfold h2_int_limit in *. lia.
  - apply (cont_repr_firstn _ _ Hc). lia.
Qed.

(* values: no usize wrap-around *)
Lemma classify_bound L : forall bs v rest, octets bs ->
  classify L bs = CDone v rest -> v < 128 ^ N.of_nat L.
Proof.
  induction L as [|L IH]; intros bs v rest Hb H; cbn [classify] in H; [discriminate|].
  destruct bs as [|b t]; [discriminate|].
  apply octets_cons in Hb. destruct Hb as [Hb Ht].
  rewrite Nat2N.inj_succ, N.pow_succ_r'.
  assert (0 < 128 ^ N.of_nat L) by (apply N.neq_0_lt_0; apply N.pow_nonzero; lia).
  destruct (b <? 128) eqn:E.
  - inversion H; subst. lia.
  - destruct (classify L t) as [v' r'| |] eqn:E2; try discriminate.
    inversion H; subst. specialize (IH _ _ _ Ht E2). lia.
Qed.

Theorem decode_int_bound p bs v rest : 1 <= p <= 8 -> octets bs ->
  decode_int p bs = ROk v rest -> v < 2 ^ 28 + 255.
Proof.
  intros Hp Hb H. destruct bs as [|b t]; [rewrite decode_int_nil in H by exact Hp; discriminate|].
  rewrite (decode_int_cases p b t Hp Hb) in H.
  assert (Hpow : 2 ^ p <= 2 ^ 8) by (apply N.pow_le_mono_r; lia).
  pose proof (N.mod_upper_bound b (2 ^ p)) as Hm. pose proof (pow2_pos p) as Hpp.
  destruct (b mod 2 ^ p <? 2 ^ p - 1) eqn:E.
  - inversion H; subst. lia.
  - apply octets_cons in Hb. destruct Hb as [_ Ht].
    destruct (classify h2_int_limit t) as [v' r'| |] eqn:Ec; try discriminate.
    inversion H; subst. apply classify_bound in Ec; [|exact Ht].
    change (128 ^ N.of_nat h2_int_limit) with (2 ^ 28) in Ec. lia.
Qed.

(* round trip with the canonical encoder, for every value that fits into 4 continuation octets *)
Theorem decode_int_encode_int p hi v rest : 1 <= p <= 8 -> hi < 2 ^ (8 - p) ->
  v < 2 ^ p - 1 + 2 ^ 28 -> octets rest ->
  decode_int p (encode_int p hi v ++ rest) = ROk v rest.
Proof.
  intros Hp Hhi Hv Hr.
  pose proof (encode_int_repr p hi v) as H.
  assert (Hl : (length (encode_int p hi v) <= S h2_int_limit)%nat).
  { unfold encode_int. destruct (v <? 2 ^ p - 1) eqn:E; cbn [length]; [lia|].
    apply le_n_S. apply encode_cont_length; [|unfold h2_int_limit; lia].
    change (128 ^ N.of_nat h2_int_limit) with (2 ^ 28). lia. }
  apply rd_opt_ok. rewrite decode_int_ref; [|exact Hp|].
  - apply (ref_decode_int_complete h2_int_limit p hi v _ rest). split; assumption.
  - apply octets_app. split; [|exact Hr]. apply (int_repr_octets p hi v); [lia|assumption..].
Qed.

Example decode_int_spec_example : decode_int 5 [31; 154; 10; 7] = ROk 1337 [7].
Proof. vm_compute. reflexivity. Qed.           (* RFC 7541 C.1.2 *)

Example decode_int_encode_int_example :
  decode_int 7 (encode_int 7 1 268435582 ++ [9]) = ROk 268435582 [9].
Proof. vm_compute. reflexivity. Qed.    (* 2^7 - 1 + 2^28 - 1: the largest accepted value *)

(* the bound of the round trip is sharp: the next value needs a fifth continuation octet *)
Example decode_int_beyond_bound :
  decode_int 7 (encode_int 7 1 268435583) = RErr IntegerOverflow.
Proof. vm_compute. reflexivity. Qed.

(* the relation also contains non-canonical forms, which h2 accepts within its octet limit *)
Example decode_int_padded : decode_int 5 [63; 128; 128; 0; 7] = ROk 31 [7].
Proof. vm_compute. reflexivity. Qed.
Example int_repr_padded : int_repr 5 1 31 [63; 128; 128; 0].
Proof.
  change 31 with (2 ^ 5 - 1 + 0). change 63 with (1 * 2 ^ 5 + (2 ^ 5 - 1)).
  constructor.
  change 0 with (0 + 128 * (0 + 128 * 0)). change 128 with (128 + 0) at 1 3.
  repeat (apply cont_more; [lia|]). constructor. lia.
Qed.

(* the other outcomes, on the RFC 7541 C.1.2 example cut short / prolonged *)
Example decode_int_need_more_example : decode_int 5 [31; 154] = RErr (NeedMore IntegerUnderflow).
Proof. vm_compute. reflexivity. Qed.
Example decode_int_truncated_example :
  int_repr_L h2_int_limit 5 0 1337 [31; 154; 10] /\
  decode_int 5 (firstn 2 [31; 154; 10]) = RErr (NeedMore IntegerUnderflow).
Proof.
  split; [|vm_compute; reflexivity]. split; [|cbn [length]; unfold h2_int_limit; lia].
  change 1337 with (2 ^ 5 - 1 + (26 + 128 * 10)). change 31 with (0 * 2 ^ 5 + (2 ^ 5 - 1)).
  constructor. change 154 with (128 + 26). apply cont_more; [lia|]. constructor. lia.
Qed.
Example decode_int_overflow_example :
  decode_int 5 [31; 128; 128; 128; 128; 1] = RErr IntegerOverflow.
Proof. vm_compute. reflexivity. Qed.
Example decode_int_invalid_prefix_example : decode_int 9 [255] = RErr InvalidIntegerPrefix.
Proof. vm_compute. reflexivity. Qed.
