(* The concrete instance of C01's wire interface: [h2_wcodec] (Model/WireCodec.v) = h2's frame codec
   composed with h2's HPACK encoder on the sending side and h2's HPACK decoder on the receiving side. *)
From H2V Require Import Base.Tac Base.Bytes Gen.FrameConsts Ref.Rfc9113Frame.
From H2V Require Import Model.FrameCodec Model.ReadBuf Model.Huffman Model.HpackInt Model.HpackEnc Model.HpackDec.
From H2V Require Import Proofs.HpackIntProofs Proofs.HpackEncProofs Proofs.HpackDecProofs Proofs.HpackSyncProofs.
From H2V Require Import Proofs.ReadBufProofs Proofs.FrameSeqProofs.
From H2V Require Model.WriteBuf.
From H2V Require Import Model.StreamState Model.DataPath Model.WireCodec Proofs.DataPathProofs.
Local Open Scope N_scope.

(* DataPath's [codec_sync c R] quantifies over EVERY frame value and demands the frame back unchanged.
   No real codec satisfies that literally: a stream id has 31 bits, a DATA payload must fit the peer's
   max_frame_size, header strings must be octet strings, h2's decoder validates fields, the receiver
   bounds CONTINUATION runs -- and the wire does not carry DataPath's head/interim/trailers tag.
   [codec_sync_on P proj c R] is the same interface relative to a predicate P on (encoder state, frame)
   and a projection proj (what the wire preserves). *)
Definition codec_sync_on {F ES DS} (P : ES -> F -> Prop) (proj : F -> F)
           (c : wcodec F ES DS) (R : ES -> DS -> Prop) : Prop :=
  (forall ds, wc_dec c ds [] = None) /\
  forall es ds f bs es', R es ds -> P es f -> wc_enc c es f = (bs, es') ->
    bs <> [] /\
    (forall rest, exists ds', wc_dec c ds (bs ++ rest) = Some (proj f, rest, ds') /\ R es' ds') /\
    (forall pre, strict_prefix pre bs -> wc_dec c ds pre = None).

(* P along the sender's run: each frame against the encoder state it meets *)
Fixpoint all_ok {F ES DS} (P : ES -> F -> Prop) (c : wcodec F ES DS) (es : ES) (fs : list F) : Prop :=
  match fs with
  | [] => True
  | f :: fs' => P es f /\ all_ok P c (snd (wc_enc c es f)) fs'
  end.

Theorem wire_prefix_on {F ES DS} (P : ES -> F -> Prop) (proj : F -> F) (c : wcodec F ES DS) (R : ES -> DS -> Prop) :
  codec_sync_on P proj c R ->
  forall fs es ds w tail fuel,
  R es ds -> all_ok P c es fs -> w ++ tail = enc_all c es fs -> (length fs < fuel)%nat ->
  exists fs1 fs2, fs = fs1 ++ fs2 /\ dec_all c fuel ds w = map proj fs1.
Proof.
  intros [EMP SY]. induction fs as [|f fs IH]; intros es ds w tail fuel RR OK E FU.
  - cbn in E. apply app_eq_nil in E. destruct E as [-> _]. exists [], []. split; [reflexivity|].
    destruct fuel; [reflexivity|]. cbn. rewrite EMP. reflexivity.
  - cbn [enc_all] in E. cbn [all_ok] in OK. destruct OK as [OKf OK].
    destruct (wc_enc c es f) as [bs es'] eqn:EN. cbn [snd] in OK.
    destruct (SY _ _ _ _ _ RR OKf EN) as (NE & DEC & PRE).
    destruct fuel as [|fuel]; [cbn in FU; lia|].
    destruct (app_split _ _ _ _ E) as [(l & A1 & A2)|(l & A0 & A1 & A2)].
    + subst w. destruct (DEC l) as (ds' & D & RR'). cbn [dec_all]. rewrite D.
      destruct (IH es' ds' l tail fuel RR' OK (eq_sym A2)) as (fs1 & fs2 & S1 & S2); [cbn in FU; lia|].
      exists (f :: fs1), fs2. split; [cbn; congruence|]. rewrite S2. reflexivity.
    + exists [], (f :: fs). split; [reflexivity|]. cbn [dec_all].
      rewrite (PRE w); [reflexivity|]. exists l. auto.
Qed.

(* a submitted field list: C10's condition (octet strings shorter than 2^24) and C11's (the fields
   pass the validation h2's decoder applies: Header::new) *)
Definition hfields_ok (p : wparams) (h : fields) : Prop :=
  forallb field_ok (hblock_in p h) = true /\ fields_valid h = true.

(* the block the sender's encoder produces for [f] in state [es] needs no more CONTINUATION frames than
   the receiver's flood limit tolerates (framed_read.rs calc_max_continuation_frames; beyond it the
   receiver answers GOAWAY(ENHANCE_YOUR_CALM) "too_many_continuations") *)
Definition block_fits (p : wparams) (es : enc_state) (sid : N) (f : sframe) : Prop :=
  forall block es', h2_block p es f = Some (block, es') ->
    cont_ok (wp_smax p) (wp_rmax p) (wp_hls p) (wire_frame_of sid f block).

Definition sframe_ok (p : wparams) (es : enc_state) (x : N * sframe) : Prop :=
  sid_ok (fst x) = true /\ fst x <> 0 /\
  match snd x with
  | FData pl _ => FrameCodec.lenN pl <= wp_smax p /\ bytes_ok pl = true
  | FReset code => u32_ok code = true
  | FHeaders _ h _ => hfields_ok p h /\ block_fits p es (fst x) (snd x)
  | FPush pr h => sid_ok pr = true /\ hfields_ok p h /\ block_fits p es (fst x) (snd x)
  end.

Definition wparams_ok (p : wparams) : Prop :=
  42 <= wp_smax p /\ wp_smax p <= MAX_MAX_FRAME_SIZE /\ wp_smax p <= wp_rmax p.

Lemma submitted_hblock p h : HpackEnc.submitted (hblock_in p h) = h.
Proof.
  unfold HpackEnc.submitted. generalize (@nil N). induction h as [|[n v] h IH]; intros prev; [reflexivity|].
  cbn [hblock_in map submitted_from to_field_in fi_name fi_value fst snd]. fold (hblock_in p h).
  rewrite IH. reflexivity.
Qed.

Lemma block_named_hblock p h : block_named (hblock_in p h) = true.
Proof. destruct h as [|[n v] h]; reflexivity. Qed.

Lemma hblock_sync p es ds f h :
  hsync es ds -> sframe_fields f = Some h -> hfields_ok p h ->
  exists block es',
    h2_block p es f = Some (block, es') /\ bytes_ok block = true /\
    r_verdict (decode huff_decode_opt ds block) = VOk /\
    r_fields (decode huff_decode_opt ds block) = h /\
    hsync es' (r_dec (decode huff_decode_opt ds block)).
Proof.
  intros Hs Hfs [Hf Hv].
  assert (Hb : block_ok (hblock_in p h) = true).
  { unfold block_ok. rewrite block_named_hblock, Hf. reflexivity. }
  rewrite <- (submitted_hblock p h) in Hv.
  destruct (block_both_ends es ds [] (hblock_in p h) Hs Hb Hv) as (st2 & out & Henc & Hver & Hfl & Hs2 & _ & _).
  cbn [fold_left] in Henc, Hver, Hfl, Hs2. rewrite submitted_hblock in Hfl.
  exists out, st2. split; [unfold h2_block; rewrite Hfs, Henc; reflexivity|].
  split; [apply bytes_ok_octets; eapply enc_encode_octets; eassumption|auto].
Qed.

Lemma h2_frame_sync p es ds sid f :
  hsync es ds -> sframe_ok p es (sid, f) ->
  exists block es',
    h2_block p es f = Some (block, es') /\
    frame_wf (wp_smax p) (wire_frame_of sid f block) = true /\
    cont_ok (wp_smax p) (wp_rmax p) (wp_hls p) (wire_frame_of sid f block) /\
    match sframe_fields f with
    | None => True
    | Some h => r_verdict (decode huff_decode_opt ds block) = VOk /\ r_fields (decode huff_decode_opt ds block) = h
    end /\
    hsync es' (match sframe_fields f with Some _ => r_dec (decode huff_decode_opt ds block) | None => ds end).
Proof.
  intros Hs (Hsid & Hs0 & H). cbn [fst snd] in *. apply N.eqb_neq in Hs0.
  destruct f as [k h e|pl e|pr h|code]; cbn [sframe_fields wire_frame_of frame_wf].
  - (* HEADERS *)
    destruct H as [Hh Hfit].
    destruct (hblock_sync p es ds (FHeaders k h e) h Hs eq_refl Hh) as (block & es' & Hb & Hbl & Hv & Hf & Hs').
    exists block, es'. split; [exact Hb|]. split; [|split; [exact (Hfit block es' Hb)|auto]].
    rewrite Hsid, Hs0, Hbl. destruct e; reflexivity.
  - (* DATA *)
    destruct H as [Hl Hb]. apply N.leb_le in Hl. exists [], es. split; [reflexivity|]. split.
    + rewrite Hsid, Hs0, Hb, Hl. destruct e; reflexivity.
    + unfold cont_ok. cbn [continuations_needed]. split; [lia|auto].
  - (* PUSH_PROMISE *)
    destruct H as (Hpr & Hh & Hfit).
    destruct (hblock_sync p es ds (FPush pr h) h Hs eq_refl Hh) as (block & es' & Hb & Hbl & Hv & Hf & Hs').
    exists block, es'. split; [exact Hb|]. split; [|split; [exact (Hfit block es' Hb)|auto]].
    rewrite Hsid, Hs0, Hpr, Hbl. reflexivity.
  - (* RST_STREAM *)
    exists [], es. split; [reflexivity|]. rewrite Hsid, Hs0, H.
    unfold cont_ok. cbn [continuations_needed]. split; [reflexivity|]. split; [lia|auto].
Qed.

Lemma reader_on_clean p bs : rclean (wp_rmax p) (wp_hls p) (reader_on p bs) /\ r_buf (reader_on p bs) = bs.
Proof. unfold rclean, reader_on. repeat split; reflexivity. Qed.

(* [hsync] (Proofs/HpackSyncProofs.v): the two HPACK ends between two blocks, with equal tables *)
Theorem h2_sync p : wparams_ok p -> codec_sync_on (sframe_ok p) norm_wire (h2_wcodec p) hsync.
Proof.
  intros (H42 & Hmax & Hr). split.
  - intros ds. reflexivity.
  - intros es ds [sid f] bs es' Hs Hok Henc.
    cbn [h2_wcodec wc_enc wc_dec] in *. unfold h2_enc in Henc. cbn [fst snd] in Henc.
    destruct (h2_frame_sync p es ds sid f Hs Hok) as (block & es1 & Hb & Hwf & Hc & Hdec & Hs1).
    rewrite Hb in Henc.
    destruct (poll_logical (wp_smax p) (wp_rmax p) (wp_hls p) _ H42 Hmax Hr Hwf Hc) as (bs0 & He & H9 & Hfull & Hpre).
    rewrite He in Henc. injection Henc as <- <-.
    split; [destruct bs0; [cbn in H9; lia|discriminate]|]. split.
    + intros rest. unfold h2_dec.
      destruct (reader_on_clean p (bs0 ++ rest)) as [Hcl Hbuf].
      destruct (Hfull _ rest Hcl Hbuf) as (hs' & Hp). rewrite Hp. unfold norm_wire. cbn [fst snd].
      destruct f as [k h e|pl e|pr h|code]; cbn [wire_frame_of raw_event is_header_frame strip_block frame_block
                                                    sframe_fields norm_frame r_buf set_core] in *.
      * destruct Hdec as (Hv & Hf). rewrite Hv, Hf. destruct e; eauto.
      * destruct e; eauto.
      * destruct Hdec as (Hv & Hf). rewrite Hv, Hf. eauto.
      * eauto.
    + intros pre Hsp. unfold h2_dec.
      destruct (reader_on_clean p pre) as [Hcl Hbuf].
      assert (Hn : snd (poll hp_raw (reader_on p pre)) = None) by (apply Hpre; [exact Hcl|rewrite Hbuf; exact Hsp]).
      destruct (poll hp_raw (reader_on p pre)) as [st' o]. cbn [snd] in Hn. subst o. reflexivity.
Qed.

Lemma frames_of_norm sid : forall l, frames_of sid (map norm_wire l) = map norm_frame (frames_of sid l).
Proof.
  unfold frames_of. induction l as [|[s f] l IH]; [reflexivity|].
  cbn [map flat_map norm_wire fst snd]. rewrite IH. destruct (N.eqb s sid); reflexivity.
Qed.

Lemma payloads_norm : forall l, payloads (map norm_frame l) = payloads l.
Proof.
  unfold payloads. induction l as [|f l IH]; [reflexivity|]. cbn [map flat_map]. rewrite IH.
  destruct f; reflexivity.
Qed.

Lemma flat_norm : forall l, flat (map norm_frame l) = map norm_atom (flat l).
Proof.
  unfold flat. induction l as [|f l IH]; [reflexivity|]. cbn [map flat_map]. rewrite IH, map_app. f_equal.
  destruct f as [k h e|pl e|pr h|code]; cbn [norm_frame flat1 map norm_atom].
  - destruct e; reflexivity.
  - rewrite map_app, map_map. destruct e; reflexivity.
  - reflexivity.
  - reflexivity.
Qed.

(* the receiver's frame sequence -- produced by h2's frame reader and h2's HPACK decoder from ANY prefix of
   the octets that h2's HPACK encoder and h2's frame writer emitted for the sender's frames -- is a prefix
   of those frames, in order (modulo the head/trailers tag, which the wire does not carry), and carries
   for every stream a prefix of what was submitted on it *)
Theorem wire_roundtrip_h2 p :
  wparams_ok p ->
  forall chain ls st os es ds w tail sid,
  run (init_state chain) ls = ROk st os ->
  hsync es ds ->
  all_ok (sframe_ok p) (h2_wcodec p) es (wire_frames os) ->
  w ++ tail = enc_all (h2_wcodec p) es (wire_frames os) ->
  let rx := dec_all (h2_wcodec p) (S (length (wire_frames os))) ds w in
  (exists later, rx ++ later = map norm_wire (wire_frames os)) /\
  (exists more, payloads (frames_of sid rx) ++ more = payloads (submitted sid ls)) /\
  (no_drop sid os -> exists more, flat (frames_of sid rx) ++ more = map norm_atom (flat (submitted sid ls))).
Proof.
  intros Hp chain ls st os es ds w tail sid RUN RR OK E rx.
  destruct (wire_prefix_on _ _ _ _ (h2_sync p Hp) (wire_frames os) es ds w tail (S (length (wire_frames os))) RR OK E)
    as (fs1 & fs2 & S1 & S2); [lia|].
  fold rx in S2.
  split; [exists (map norm_wire fs2); rewrite S2, <- map_app, <- S1; reflexivity|].
  assert (FR : sent sid os = frames_of sid fs1 ++ frames_of sid fs2).
  { rewrite <- frames_of_wire, S1, frames_of_app. reflexivity. }
  rewrite S2, frames_of_norm. split.
  - rewrite payloads_norm.
    destruct (send_bytes_preserved _ _ _ _ sid RUN) as (_ & (t & B)). rewrite FR, payloads_app in B.
    exists (payloads (frames_of sid fs2) ++ t). rewrite app_assoc. exact B.
  - intros ND. rewrite flat_norm.
    destruct (send_split_preserves _ _ _ _ sid RUN) as (_ & (t & B) & _).
    rewrite ND, FR, flat_app in B. rewrite <- B, !map_app.
    exists (map norm_atom (flat (frames_of sid fs2)) ++ map norm_atom t). rewrite app_assoc. reflexivity.
Qed.

(* the frame values handed to Codec::buffer for the sender's frames *)
Fixpoint h2_frames (p : wparams) (es : enc_state) (fs : list (N * sframe)) : list frame :=
  match fs with
  | [] => []
  | x :: fs' =>
      match h2_block p es (snd x) with
      | Some (block, es') => wire_frame_of (fst x) (snd x) block :: h2_frames p es' fs'
      | None => []
      end
  end.

(* the sender's octet stream is the frame writer's: [enc_all (h2_wcodec p)] is Model/WriteBuf.v's
   [encode_all] of [h2_frames], so C12_write_no_dup_drop / C12_write_prefix apply to it (what the
   transport has seen is a prefix of it, for all partial-write patterns) *)
Theorem enc_all_is_encode_all p :
  wparams_ok p ->
  forall fs es ds, hsync es ds -> all_ok (sframe_ok p) (h2_wcodec p) es fs ->
  WriteBuf.encode_all (wp_smax p) (h2_frames p es fs) = FrameCodec.EOk (enc_all (h2_wcodec p) es fs) /\
  frames_wf (wp_smax p) (h2_frames p es fs) = true /\
  Forall (cont_ok (wp_smax p) (wp_rmax p) (wp_hls p)) (h2_frames p es fs).
Proof.
  intros (H42 & Hmax & Hr). induction fs as [|[sid f] fs IH]; intros es ds Hs OK.
  - repeat split. constructor.
  - cbn [all_ok] in OK. destruct OK as [Hok OK].
    destruct (h2_frame_sync p es ds sid f Hs Hok) as (block & es1 & Hb & Hwf & Hc & _ & Hs1).
    destruct (poll_logical (wp_smax p) (wp_rmax p) (wp_hls p) _ H42 Hmax Hr Hwf Hc) as (bs0 & He & _).
    assert (Henc : h2_enc p es (sid, f) = (bs0, es1)).
    { unfold h2_enc. cbn [fst snd]. rewrite Hb, He. reflexivity. }
    cbn [wc_enc h2_wcodec] in OK. rewrite Henc in OK. cbn [snd] in OK.
    destruct (IH es1 _ Hs1 OK) as (A & B & C).
    cbn [h2_frames enc_all fst snd wc_enc h2_wcodec]. rewrite Hb, Henc.
    cbn [WriteBuf.encode_all frames_wf forallb]. rewrite He, A. fold (frames_wf (wp_smax p) (h2_frames p es1 fs)).
    rewrite Hwf, B. repeat split. constructor; assumption.
Qed.

Definition hfields_okb (p : wparams) (h : fields) : bool :=
  forallb field_ok (hblock_in p h) && fields_valid h.

Definition block_fitsb (p : wparams) (es : enc_state) (sid : N) (f : sframe) : bool :=
  match h2_block p es f with
  | Some (block, _) =>
      continuations_needed (wp_smax p) (wire_frame_of sid f block)
        <=? calc_max_continuation_frames (wp_hls p) (wp_rmax p) + 1
  | None => true
  end.

Definition sframe_okb (p : wparams) (es : enc_state) (x : N * sframe) : bool :=
  sid_ok (fst x) && negb (fst x =? 0) &&
  match snd x with
  | FData pl _ => (FrameCodec.lenN pl <=? wp_smax p) && bytes_ok pl
  | FReset code => u32_ok code
  | FHeaders _ h _ => hfields_okb p h && block_fitsb p es (fst x) (snd x)
  | FPush pr h => sid_ok pr && hfields_okb p h && block_fitsb p es (fst x) (snd x)
  end.

Fixpoint all_okb (p : wparams) (es : enc_state) (fs : list (N * sframe)) : bool :=
  match fs with
  | [] => true
  | f :: fs' => sframe_okb p es f && all_okb p (snd (h2_enc p es f)) fs'
  end.

Lemma hfields_okb_ok p h : hfields_okb p h = true -> hfields_ok p h.
Proof. exact (proj1 (andb_true_iff _ _)). Qed.

Lemma block_fitsb_ok p es sid f : block_fitsb p es sid f = true -> block_fits p es sid f.
Proof.
  unfold block_fitsb, block_fits. intros H block es' Hb. rewrite Hb in H. apply N.leb_le in H. exact H.
Qed.

Lemma sframe_okb_ok p es x : sframe_okb p es x = true -> sframe_ok p es x.
Proof.
  unfold sframe_okb, sframe_ok. rewrite !andb_true_iff, negb_true_iff, N.eqb_neq. intros [[H1 H2] H3].
  split; [exact H1|]. split; [exact H2|].
  destruct (snd x) as [k h e|pl e|pr h|code]; rewrite ?andb_true_iff in H3.
  - destruct H3 as [A B]. split; [apply hfields_okb_ok; exact A|apply block_fitsb_ok; exact B].
  - rewrite N.leb_le in H3. exact H3.
  - destruct H3 as [[A B] C]. split; [exact A|]. split; [apply hfields_okb_ok; exact B|apply block_fitsb_ok; exact C].
  - exact H3.
Qed.

Lemma all_okb_ok p : forall fs es, all_okb p es fs = true -> all_ok (sframe_ok p) (h2_wcodec p) es fs.
Proof.
  induction fs as [|f fs IH]; intros es H; [exact I|].
  cbn [all_okb] in H. apply andb_true_iff in H. destruct H as [A B].
  cbn [all_ok]. split; [apply sframe_okb_ok; exact A|]. apply IH. exact B.
Qed.

(* two interleaved streams: a response head on each, stream 1's 5-octet body cut by a 1-octet window
   (the remainder waits inside the codec, is reclaimed and goes out later, END_STREAM on the last piece),
   stream 3's body followed by trailers; 16 KiB frames, h2's default header list limit *)
Definition ex_p : wparams := mkWP 16384 16384 16777216 (fun _ _ => false).
Definition ex_head : sframe :=
  FHeaders HkHead [([58;115;116;97;116;117;115], [50;48;48]);                                   (* :status 200 *)
                   ([99;111;110;116;101;110;116;45;116;121;112;101], [116;101;120;116])] false.  (* content-type text *)
Definition ex_trailers : sframe :=
  FHeaders HkTrailers [([120;45;99;104;101;99;107], [97;98;99])] true.                           (* x-check abc *)
Definition ex_labels : list label :=
  [LNew 1; LNew 3; LQueue 1 ex_head; LSendData 1 true [10;11;12;13;14] true; LQueue 3 ex_head;
   LSendData 3 true [20;21;22] false; LQueue 3 ex_trailers;
   LPop 1 16384 5 65535; LPop 3 16384 3 65535; LPop 1 16384 1 65535; LPop 3 16384 3 65535;
   LPop 1 16384 4 65534; LPop 3 16384 0 0].

Example wire_roundtrip_h2_nonvacuous :
  wparams_ok ex_p /\
  exists st os,
    run (init_state 256) ex_labels = ROk st os /\
    wire_frames os = [(1, ex_head); (3, ex_head); (1, FData [10] false); (3, FData [20;21;22] false);
                      (1, FData [11;12;13;14] true); (3, ex_trailers)] /\
    all_ok (sframe_ok ex_p) (h2_wcodec ex_p) (enc_new 4096) (wire_frames os) /\
    let total := enc_all (h2_wcodec ex_p) (enc_new 4096) (wire_frames os) in
    (* all octets arrived: every frame, trailers tagged HkHead *)
    dec_all (h2_wcodec ex_p) (S (length (wire_frames os))) (decoder_new 4096) total
      = map norm_wire (wire_frames os) /\
    (* the last 3 octets missing: every frame but the trailers *)
    dec_all (h2_wcodec ex_p) (S (length (wire_frames os))) (decoder_new 4096) (firstn (length total - 3) total)
      = map norm_wire (removelast (wire_frames os)) /\
    (* six frames, 54 octets of frame heads; the second response head is two indexed fields *)
    length total = 81%nat.
Proof.
  split; [unfold wparams_ok, ex_p, MAX_MAX_FRAME_SIZE; cbn; lia|].
  destruct (run (init_state 256) ex_labels) as [st os|k r] eqn:E; [|vm_compute in E; discriminate].
  vm_compute in E. inversion E; subst. clear E.
  eexists _, _. split; [reflexivity|]. split; [vm_compute; reflexivity|].
  split; [apply all_okb_ok; vm_compute; reflexivity|].
  cbv zeta. split; [vm_compute; reflexivity|]. split; vm_compute; reflexivity.
Qed.
