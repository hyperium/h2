(* The receive path model (Model/ReadBuf.v): events and final state do not depend on how the transport
   cut the stream; the receive limit; the CONTINUATION rules of decode_frame; no panic; what the encoder
   emits, CONTINUATION runs included, is read back by the reference stream decoder and by the model's
   reader.  All statements about [feed] hold for every HPACK instance [ops]. *)
From H2V Require Import Base.Tac Base.Bytes Gen.FrameConsts Ref.Rfc9113Frame Model.FrameCodec Model.WriteBuf
  Model.ReadBuf Proofs.WriteBufProofs Proofs.FrameCodecProofs.
Local Open Scope N_scope.

(* as in FrameCodecProofs, for [frame_type] *)
Local Arguments N.eqb !n !m : simpl nomatch.

(* the model of LengthDelimitedCodec hard-wires what codec/mod.rs configures *)
Lemma ld_config_as_modelled :
  (ld_length_field_offset, ld_length_field_length, ld_num_skip, ld_length_adjustment) = (0, 3, 0, 9).
Proof. reflexivity. Qed.

Lemma ld_data_more n buf more :
  ld_data n (buf ++ more) =
  match ld_data n buf with
  | LdOut fr rest => LdOut fr (rest ++ more)
  | LdNeed s => ld_data n (buf ++ more)
  | LdError => LdError
  end.
Proof.
  unfold ld_data at 2. destruct (N.ltb_spec (lenN buf) n) as [E|E]; [reflexivity|].
  unfold ld_data. rewrite lenN_app.
  destruct (N.ltb_spec (lenN buf + lenN more) n); [lia|].
  rewrite takeN_app_le, dropN_app_le by exact E. reflexivity.
Qed.

Lemma ld_decode_cases max s buf :
  (exists n, ld_decode max s buf = ld_data n buf /\ forall more, ld_decode max s (buf ++ more) = ld_data n (buf ++ more))
  \/ (ld_decode max s buf = LdError /\ forall more, ld_decode max s (buf ++ more) = LdError)
  \/ (ld_decode max s buf = LdNeed LdHead /\ s = LdHead).
Proof.
  destruct s as [|n]; [|left; exists n; split; reflexivity].
  destruct buf as [|l0 [|l1 [|l2 r]]]; [right; right; split; reflexivity ..|].
  cbn [ld_decode app]. destruct (max <? _); [right; left | left; eexists]; split; reflexivity.
Qed.

Lemma ld_decode_out max s buf fr rest more :
  ld_decode max s buf = LdOut fr rest -> ld_decode max s (buf ++ more) = LdOut fr (rest ++ more).
Proof.
  destruct (ld_decode_cases max s buf) as [(n & -> & ->)|[[-> _]|[-> _]]]; try discriminate.
  intros H. rewrite ld_data_more, H. reflexivity.
Qed.

Lemma ld_decode_err max s buf more :
  ld_decode max s buf = LdError -> ld_decode max s (buf ++ more) = LdError.
Proof.
  destruct (ld_decode_cases max s buf) as [(n & -> & _)|[[_ ->]|[-> _]]]; try discriminate; [|reflexivity].
  unfold ld_data. destruct (_ <? _); discriminate.
Qed.

(* waiting for more octets: deciding again with more octets gives the same answer from the old
   and from the updated decoder state *)
Lemma ld_decode_need max s buf s' more :
  ld_decode max s buf = LdNeed s' -> ld_decode max s' (buf ++ more) = ld_decode max s (buf ++ more).
Proof.
  destruct (ld_decode_cases max s buf) as [(n & -> & ->)|[[-> _]|[-> ->]]]; try discriminate.
  - unfold ld_data at 1. destruct (_ <? _); [|discriminate]. intros H. injection H as <-. reflexivity.
  - intros H. injection H as <-. reflexivity.
Qed.

Lemma ld_decode_need_idem max s buf s' :
  ld_decode max s buf = LdNeed s' -> ld_decode max s' buf = LdNeed s'.
Proof.
  intros H. pose proof (ld_decode_need max s buf s' [] H) as H2. rewrite app_nil_r in H2. congruence.
Qed.

Lemma ld_need_then_error max s buf s' more :
  ld_decode max s buf = LdNeed s' -> ld_decode max s (buf ++ more) = LdError -> s' = s.
Proof.
  destruct (ld_decode_cases max s buf) as [(n & _ & ->)|[[-> _]|[-> ->]]]; try discriminate.
  - intros _ H. unfold ld_data in H. destruct (_ <? _); discriminate.
  - intros H _. injection H as <-. reflexivity.
Qed.

Lemma ld_decode_out_len max s buf fr rest :
  ld_decode max s buf = LdOut fr rest -> fr ++ rest = buf.
Proof.
  destruct (ld_decode_cases max s buf) as [(n & -> & _)|[[-> _]|[-> _]]]; try discriminate.
  unfold ld_data. destruct (_ <? _); [discriminate|]. intros H. injection H as <- <-. apply takeN_dropN.
Qed.

Lemma parse_head_len bs h p : parse_head bs = Some (h, p) -> (9 <= length bs)%nat.
Proof.
  destruct bs as [|l0 [|l1 [|l2 [|k [|fl [|s0 [|s1 [|s2 [|s3 payload]]]]]]]]]; try discriminate.
  intros _. cbn [length]. lia.
Qed.

Lemma decode_frame_continues {HS} (ops : hpack_ops HS) mh mc pt hs bytes pt' hs' d :
  decode_frame ops mh mc pt hs bytes = (pt', hs', d) ->
  (forall e, d <> DStop e) -> (9 <= length bytes)%nat.
Proof.
  unfold decode_frame. destruct (parse_head bytes) as [[h p]|] eqn:E; [intros _ _; exact (parse_head_len _ _ _ E)|].
  intros H Hd. injection H as <- <- <-. destruct (Hd EvPanic eq_refl).
Qed.

Definition with_buf {HS} (st : rstate HS) (b : list N) : rstate HS :=
  set_core st b (r_ld st) (r_partial st) (r_hs st) (r_dead st).

Definition drain {HS} (ops : hpack_ops HS) (st : rstate HS) : rstate HS * list (event HS) :=
  pump ops (S (length (r_buf st))) st.

Ltac norm := cbn [with_buf set_core r_buf r_ld r_max_frame r_max_hls r_max_cont r_partial r_hs r_dead].

Lemma round_shrinks {HS} (ops : hpack_ops HS) (st : rstate HS) fr rest pt hs d :
  ld_decode (r_max_frame st) (r_ld st) (r_buf st) = LdOut fr rest ->
  decode_frame ops (r_max_hls st) (r_max_cont st) (r_partial st) (r_hs st) fr = (pt, hs, d) ->
  (forall e, d <> DStop e) -> (length rest < length (r_buf st))%nat.
Proof.
  intros El Ed Hd. rewrite <- (ld_decode_out_len _ _ _ _ _ El), app_length.
  pose proof (decode_frame_continues _ _ _ _ _ _ _ _ _ Ed Hd). lia.
Qed.

Lemma pump_fuel_enough {HS} (ops : hpack_ops HS) : forall F1 F2 (st : rstate HS),
  (length (r_buf st) < F1)%nat -> (length (r_buf st) < F2)%nat -> pump ops F1 st = pump ops F2 st.
Proof.
  induction F1 as [|F1 IH]; intros F2 st H1 H2; [lia|].
  destruct F2 as [|F2]; [lia|].
  cbn [pump]. destruct (r_dead st); [reflexivity|].
  destruct (ld_decode (r_max_frame st) (r_ld st) (r_buf st)) as [s|fr rest|] eqn:El; try reflexivity.
  destruct (decode_frame ops (r_max_hls st) (r_max_cont st) (r_partial st) (r_hs st) fr) as [[pt hs] d] eqn:Ed.
  pose proof (round_shrinks ops st fr rest pt hs d El Ed) as Hlt.
  destruct d as [|e|e]; [| |reflexivity];
    rewrite (IH F2 (set_core st rest LdHead pt hs false)) by (norm; specialize (Hlt ltac:(discriminate)); lia);
    reflexivity.
Qed.

(* the unfolding equation of [drain] *)
Lemma drain_unfold {HS} (ops : hpack_ops HS) (st : rstate HS) :
  drain ops st =
  if r_dead st then (st, []) else
  match ld_decode (r_max_frame st) (r_ld st) (r_buf st) with
  | LdNeed s => (set_core st (r_buf st) s (r_partial st) (r_hs st) false, [])
  | LdError => (set_core st (r_buf st) (r_ld st) (r_partial st) (r_hs st) true,
                [EvError (PEGoAway [] reason_FRAME_SIZE_ERROR)])
  | LdOut bytes rest =>
      let '(pt, hs, d) := decode_frame ops (r_max_hls st) (r_max_cont st) (r_partial st) (r_hs st) bytes in
      match d with
      | DNone => drain ops (set_core st rest LdHead pt hs false)
      | DEvent e => let (st', evs) := drain ops (set_core st rest LdHead pt hs false) in (st', e :: evs)
      | DStop e => (set_core st rest LdHead pt hs true, [e])
      end
  end.
Proof.
  unfold drain at 1. cbn [pump]. destruct (r_dead st); [reflexivity|].
  destruct (ld_decode (r_max_frame st) (r_ld st) (r_buf st)) as [s|fr rest|] eqn:El; try reflexivity.
  destruct (decode_frame ops (r_max_hls st) (r_max_cont st) (r_partial st) (r_hs st) fr) as [[pt hs] d] eqn:Ed.
  pose proof (round_shrinks ops st fr rest pt hs d El Ed) as Hlt.
  destruct d as [|e|e]; [| |reflexivity];
    (rewrite (pump_fuel_enough ops _ (S (length rest))); [reflexivity | norm; apply Hlt; discriminate | norm; lia]).
Qed.

Lemma drain_induction {HS} (ops : hpack_ops HS) (P : rstate HS -> Prop) :
  (forall st,
     (forall fr rest pt hs d,
        ld_decode (r_max_frame st) (r_ld st) (r_buf st) = LdOut fr rest ->
        decode_frame ops (r_max_hls st) (r_max_cont st) (r_partial st) (r_hs st) fr = (pt, hs, d) ->
        (forall e, d <> DStop e) ->
        P (set_core st rest LdHead pt hs false)) ->
     P st) ->
  forall st, P st.
Proof.
  intros Hstep.
  assert (H : forall n st, (length (r_buf st) < n)%nat -> P st).
  { induction n as [|n IH]; intros st Hn; [lia|]. apply Hstep. intros fr rest pt hs d El Ed Hd.
    apply IH. pose proof (round_shrinks ops st fr rest pt hs d El Ed Hd). norm. lia. }
  intros st. apply (H (S (length (r_buf st)))). lia.
Qed.

(* the buffer only shrinks *)
Lemma run_buf_le {HS} (ops : hpack_ops HS) : forall n (st : rstate HS),
  (length (r_buf st) <= n)%nat -> (length (r_buf (fst (drain ops st))) <= length (r_buf st))%nat.
Proof.
  intros _ st _. revert st. apply (drain_induction ops). intros st IH. rewrite drain_unfold.
  destruct (r_dead st); [apply Nat.le_refl|].
  destruct (ld_decode _ _ _) as [s|fr rest|] eqn:El; try apply Nat.le_refl.
  destruct (decode_frame _ _ _ _ _ fr) as [[pt hs] d] eqn:Ed. specialize (IH fr rest pt hs d eq_refl Ed).
  assert (Hrest : (length rest <= length (r_buf st))%nat)
    by (rewrite <- (ld_decode_out_len _ _ _ _ _ El), app_length; lia).
  destruct d as [|e|e]; [| |exact Hrest]; specialize (IH ltac:(discriminate)).
  - etransitivity; [exact IH | exact Hrest].
  - destruct (drain ops _) as [st' evs]. etransitivity; [exact IH | exact Hrest].
Qed.

Lemma drain_dead {HS} (ops : hpack_ops HS) (st : rstate HS) : r_dead st = true -> drain ops st = (st, []).
Proof. intros H. rewrite drain_unfold, H. reflexivity. Qed.

Lemma drain_after_need {HS} (ops : hpack_ops HS) (st : rstate HS) s more :
  ld_decode (r_max_frame st) (r_ld st) (r_buf st) = LdNeed s ->
  drain ops (set_core st (r_buf st ++ more) s (r_partial st) (r_hs st) false)
  = drain ops (set_core st (r_buf st ++ more) (r_ld st) (r_partial st) (r_hs st) false).
Proof.
  intros El. rewrite !(drain_unfold ops (set_core _ _ _ _ _ _)). norm. rewrite (ld_decode_need _ _ _ _ more El).
  destruct (ld_decode (r_max_frame st) (r_ld st) (r_buf st ++ more)) eqn:El2; try reflexivity.
  rewrite (ld_need_then_error _ _ _ _ _ El El2). reflexivity.
Qed.

Lemma drain_app {HS} (ops : hpack_ops HS) more : forall st : rstate HS,
  drain ops (with_buf st (r_buf st ++ more)) =
  let (s1, e1) := drain ops st in
  let (s2, e2) := drain ops (with_buf s1 (r_buf s1 ++ more)) in
  (s2, e1 ++ e2).
Proof.
  apply (drain_induction ops). intros st IH. rewrite (drain_unfold ops st).
  destruct (r_dead st) eqn:Hd; [destruct (drain ops _); reflexivity|].
  unfold with_buf at 1. rewrite Hd.
  destruct (ld_decode (r_max_frame st) (r_ld st) (r_buf st)) as [s|fr rest|] eqn:El.
  - rewrite <- (drain_after_need ops st s more El). norm. destruct (drain ops _). reflexivity.
  - rewrite drain_unfold. norm. rewrite (ld_decode_out _ _ _ _ _ more El).
    destruct (decode_frame ops _ _ _ _ fr) as [[pt hs] d] eqn:Ed. specialize (IH fr rest pt hs d eq_refl Ed).
    destruct d as [|e|e].
    + exact (IH ltac:(discriminate)).
    + etransitivity; [exact (f_equal (fun r : rstate HS * list (event HS) => let (s, evs) := r in (s, e :: evs)) (IH ltac:(discriminate)))|].
      destruct (drain ops (set_core st rest LdHead pt hs false)) as [s1 e1]. destruct (drain ops (with_buf s1 _)). reflexivity.
    + rewrite drain_dead by reflexivity. reflexivity.
  - rewrite drain_unfold. norm. rewrite (ld_decode_err _ _ _ more El), drain_dead by reflexivity. reflexivity.
Qed.

Lemma feed_drain {HS} (ops : hpack_ops HS) (st : rstate HS) c :
  feed ops st c = drain ops (with_buf st (r_buf st ++ c)).
Proof. reflexivity. Qed.

Lemma feed_app {HS} (ops : hpack_ops HS) (st : rstate HS) a b :
  feed ops st (a ++ b) =
  let (s1, e1) := feed ops st a in
  let (s2, e2) := feed ops s1 b in
  (s2, e1 ++ e2).
Proof. rewrite !feed_drain, app_assoc. exact (drain_app ops b (with_buf st (r_buf st ++ a))). Qed.

(* a state in which everything buffered has been looked at: nothing happens without new octets *)
Definition settled {HS} (ops : hpack_ops HS) (st : rstate HS) : Prop := feed ops st [] = (st, []).

Lemma with_buf_same {HS} (st : rstate HS) : with_buf st (r_buf st ++ []) = st.
Proof. rewrite app_nil_r. destruct st. reflexivity. Qed.

Lemma settled_init {HS} (ops : hpack_ops HS) hs0 mf mh : settled ops (rinit hs0 mf mh).
Proof. reflexivity. Qed.

Lemma feed_settled {HS} (ops : hpack_ops HS) (st : rstate HS) c : settled ops (fst (feed ops st c)).
Proof.
  unfold settled. pose proof (feed_app ops st c []) as H. rewrite app_nil_r in H.
  destruct (feed ops st c) as [s1 e1]. cbn [fst].
  destruct (feed ops s1 []) as [s2 e2]. injection H as H1 H2.
  rewrite <- (app_nil_r e1) in H2 at 1. apply app_inv_head in H2. congruence.
Qed.

Lemma feed_all_settled {HS} (ops : hpack_ops HS) : forall chunks (st : rstate HS),
  settled ops st -> settled ops (fst (feed_all ops st chunks)).
Proof.
  induction chunks as [|c cs IH]; intros st Hs; [exact Hs|].
  cbn [feed_all]. pose proof (feed_settled ops st c) as H1.
  destruct (feed ops st c) as [s1 e1]. specialize (IH s1 H1).
  destruct (feed_all ops s1 cs) as [s2 e2]. exact IH.
Qed.

(* C12, receive side: the events (frames, errors) and the final state do not depend on how the
   transport cut the octet stream into reads -- one octet at a time, all at once, anything in
   between; a read that returns Pending changes nothing at all (it is not even an input of
   the state machine). *)
Theorem C12_read_chunking {HS} (ops : hpack_ops HS) : forall chunks (st : rstate HS) bs,
  settled ops st -> concat chunks = bs ->
  feed_all ops st chunks = feed_all ops st [bs].
Proof.
  induction chunks as [|c cs IH]; intros st bs Hs Hc; subst bs.
  - cbn [concat feed_all]. rewrite Hs. reflexivity.
  - cbn [concat]. cbn [feed_all] in *. rewrite feed_app.
    pose proof (feed_settled ops st c) as Hs1.
    destruct (feed ops st c) as [s1 e1]. cbn [fst] in Hs1.
    specialize (IH s1 (concat cs) Hs1 eq_refl). rewrite IH.
    destruct (feed ops s1 (concat cs)) as [s2 e2]. rewrite !app_nil_r. reflexivity.
Qed.

Corollary C12_read_chunking_init {HS} (ops : hpack_ops HS) hs0 max_frame max_hls chunks :
  feed_all ops (rinit hs0 max_frame max_hls) chunks = feed_all ops (rinit hs0 max_frame max_hls) [concat chunks].
Proof. apply C12_read_chunking; [apply settled_init | reflexivity]. Qed.

(* one octet at a time is one of the chunkings *)
Corollary C12_read_bytewise {HS} (ops : hpack_ops HS) hs0 max_frame max_hls bs :
  feed_all ops (rinit hs0 max_frame max_hls) (map (fun b => [b]) bs)
  = feed_all ops (rinit hs0 max_frame max_hls) [bs].
Proof.
  apply C12_read_chunking; [apply settled_init|].
  induction bs as [|b bs IH]; [reflexivity|]. cbn [map concat app]. rewrite IH. reflexivity.
Qed.

(* Between two frames (nothing buffered), as soon as the three octets of a Length field that
   exceeds the local SETTINGS_MAX_FRAME_SIZE have arrived -- with or without anything behind them --
   the reader reports FRAME_SIZE_ERROR and is dead: not one octet of that frame's payload has to
   arrive, none is waited for, nothing of it is ever delivered. *)
Theorem C12_recv_limit {HS} (ops : hpack_ops HS) (st : rstate HS) l0 l1 l2 more :
  r_dead st = false -> r_ld st = LdHead -> r_buf st = [] ->
  r_max_frame st < (l0 * 256 + l1) * 256 + l2 ->
  feed ops st (l0 :: l1 :: l2 :: more) =
    (set_core st (l0 :: l1 :: l2 :: more) LdHead (r_partial st) (r_hs st) true,
     [EvError (PEGoAway [] reason_FRAME_SIZE_ERROR)]).
Proof.
  intros Hd Hl Hb Hmax. rewrite feed_drain, drain_unfold. norm. rewrite Hd, Hl, Hb.
  apply N.ltb_lt in Hmax. cbn [app ld_decode]. rewrite Hmax. reflexivity.
Qed.

(* afterwards nothing is produced, whatever arrives *)
Lemma dead_silent_all {HS} (ops : hpack_ops HS) : forall chunks (st : rstate HS),
  r_dead st = true -> snd (feed_all ops st chunks) = [] /\ r_dead (fst (feed_all ops st chunks)) = true.
Proof.
  induction chunks as [|c cs IH]; intros st Hd; [split; [reflexivity | exact Hd]|].
  cbn [feed_all]. rewrite feed_drain, drain_dead by exact Hd.
  destruct (IH (with_buf st (r_buf st ++ c)) Hd) as [H1 H2]. destruct (feed_all ops _ cs) as [s2 e2].
  split; [exact H1 | exact H2].
Qed.

(* fewer than three octets of a head decide nothing yet *)
Lemma head_incomplete_waits {HS} (ops : hpack_ops HS) (st : rstate HS) c :
  r_dead st = false -> r_ld st = LdHead -> r_buf st = [] -> (length c < 3)%nat ->
  snd (feed ops st c) = [].
Proof.
  intros Hd Hl Hb Hc. rewrite feed_drain, drain_unfold. norm. rewrite Hd, Hl, Hb.
  destruct c as [|a [|b [|x r]]]; try reflexivity. cbn [length] in Hc. lia.
Qed.

(* the hypotheses of C12_recv_limit are satisfiable: the default limit, a head announcing 16385 octets,
   delivered alone, one octet at a time *)
Example C12_recv_limit_example :
  let st := rinit ([] : list N) 16384 16777216 in
  r_dead st = false /\ r_ld st = LdHead /\ r_buf st = [] /\ r_max_frame st < (0 * 256 + 64) * 256 + 1 /\
  snd (feed_all hp_raw st [[0]; [64]; [1]]) = [EvError (PEGoAway [] reason_FRAME_SIZE_ERROR)] /\
  snd (feed_all hp_raw st [[0]; [64]]) = [] /\
  snd (feed_all hp_raw st [[0; 64; 1; 0; 0; 0; 0; 0; 1]; [1; 2; 3]; [4]]) = [EvError (PEGoAway [] reason_FRAME_SIZE_ERROR)].
Proof. vm_compute. repeat split; reflexivity. Qed.

(* exactly the limit is accepted, one more is not *)
Example recv_limit_boundary :
  snd (feed hp_raw (rinit [] 16384 16777216) ([0; 64; 0; 0; 0; 0; 0; 0; 1] ++ repeat 7 (N.to_nat 16384)))
    = [EvFrame (FData 1 0 None (repeat 7 (N.to_nat 16384)))] /\
  snd (feed hp_raw (rinit [] 16384 16777216) ([0; 64; 1; 0; 0; 0; 0; 0; 1] ++ repeat 7 (N.to_nat 16385)))
    = [EvError (PEGoAway [] reason_FRAME_SIZE_ERROR)].
(* [exact]: the two normal forms are compared by the kernel; [reflexivity] would unify 16384 octets *)
Proof. split; vm_compute; exact eq_refl. Qed.

Definition is_continuation (bytes : list N) : bool :=
  match parse_head bytes with
  | Some (h, _) => match kind_new (h_kind h) with KContinuation => true | _ => false end
  | None => false
  end.

(* while a header block is open, any frame that is not a CONTINUATION -- whatever its type, known
   or unknown, whatever its stream -- is a connection error PROTOCOL_ERROR *)
Lemma continuation_expected {HS} (ops : hpack_ops HS) mh mc p hs bytes :
  (9 <= length bytes)%nat -> is_continuation bytes = false ->
  decode_frame ops mh mc (Some p) hs bytes = (Some p, hs, go_away_protocol).
Proof.
  intros H9 Hc. unfold decode_frame, is_continuation in *.
  destruct (parse_head bytes) as [[h payload]|] eqn:E.
  - destruct (kind_new (h_kind h)); try discriminate; reflexivity.
  - destruct bytes as [|l0 [|l1 [|l2 [|k [|fl [|s0 [|s1 [|s2 [|s3 payload]]]]]]]]]; cbn [length] in H9; try lia.
    discriminate.
Qed.

Lemma load_frame_continuation bytes h payload :
  parse_head bytes = Some (h, payload) -> kind_new (h_kind h) = KContinuation ->
  load_frame bytes = POk (LdContinuation (h_sid h) (has_bit (h_flag h) continuation_END_HEADERS) payload).
Proof. intros E K. unfold load_frame. rewrite E, K. reflexivity. Qed.

(* a CONTINUATION with no header block open *)
Lemma continuation_unexpected {HS} (ops : hpack_ops HS) mh mc hs bytes :
  is_continuation bytes = true ->
  decode_frame ops mh mc None hs bytes = (None, hs, go_away_protocol).
Proof.
  intros Hc. unfold is_continuation in Hc. unfold decode_frame.
  destruct (parse_head bytes) as [[h payload]|] eqn:E; [|discriminate].
  destruct (kind_new (h_kind h)) eqn:K; try discriminate.
  cbn [andb]. rewrite (load_frame_continuation bytes h payload E K). reflexivity.
Qed.

(* a CONTINUATION for another stream than the open block *)
Lemma continuation_other_stream {HS} (ops : hpack_ops HS) mh mc p hs bytes h payload :
  parse_head bytes = Some (h, payload) -> kind_new (h_kind h) = KContinuation ->
  frame_sid (pt_frame p) <> h_sid h ->
  decode_frame ops mh mc (Some p) hs bytes = (None, hs, go_away_protocol).
Proof.
  intros E K Hs. unfold decode_frame. rewrite E, K. cbn [andb negb].
  rewrite (load_frame_continuation bytes h payload E K).
  apply N.eqb_neq in Hs. rewrite Hs. reflexivity.
Qed.

(* the CONTINUATION flood limit: one more non-final CONTINUATION than max_continuation_frames *)
Lemma continuation_flood {HS} (ops : hpack_ops HS) mh mc p hs bytes h payload :
  parse_head bytes = Some (h, payload) -> kind_new (h_kind h) = KContinuation ->
  frame_sid (pt_frame p) = h_sid h -> has_bit (h_flag h) continuation_END_HEADERS = false ->
  mc < pt_count p + 1 ->
  decode_frame ops mh mc (Some p) hs bytes =
    (None, hs, DEvent (EvError (PEGoAway dbg_too_many_continuations reason_ENHANCE_YOUR_CALM))).
Proof.
  intros E K Hs Hf Hc. unfold decode_frame. rewrite E, K. cbn [andb negb].
  rewrite (load_frame_continuation bytes h payload E K), Hf, Hs, N.eqb_refl. cbn [negb andb].
  apply N.ltb_lt in Hc. rewrite Hc. reflexivity.
Qed.

Example continuation_rules_examples :
  let st := rinit ([] : list N) 16384 20000 in
  (* HEADERS without END_HEADERS, then DATA on the same stream *)
  snd (feed hp_raw st ([0;0;1;1;0;0;0;0;1;130] ++ [0;0;1;0;0;0;0;0;1;7]))
    = [EvError (PEGoAway [] reason_PROTOCOL_ERROR)] /\
  (* ... then an unknown frame type *)
  snd (feed hp_raw st ([0;0;1;1;0;0;0;0;1;130] ++ [0;0;0;200;0;0;0;0;1]))
    = [EvError (PEGoAway [] reason_PROTOCOL_ERROR)] /\
  (* ... then CONTINUATION on stream 3 *)
  snd (feed hp_raw st ([0;0;1;1;0;0;0;0;1;130] ++ [0;0;1;9;4;0;0;0;3;135]))
    = [EvError (PEGoAway [] reason_PROTOCOL_ERROR)] /\
  (* ... then the right CONTINUATION *)
  snd (feed hp_raw st ([0;0;1;1;0;0;0;0;1;130] ++ [0;0;1;9;4;0;0;0;1;135]))
    = [EvHeaders (FHeaders 1 4 None []) [130; 135]] /\
  (* limit max(5, ..) = 5: five non-final CONTINUATIONs pass, the sixth does not *)
  r_max_cont st = 5 /\
  snd (feed hp_raw st ([0;0;0;1;0;0;0;0;1] ++ concat (repeat [0;0;0;9;0;0;0;0;1] 5) ++ [0;0;1;9;4;0;0;0;1;130]))
    = [EvHeaders (FHeaders 1 4 None []) [130]] /\
  snd (feed hp_raw st ([0;0;0;1;0;0;0;0;1] ++ concat (repeat [0;0;0;9;0;0;0;0;1] 6) ++ [0;0;1;9;4;0;0;0;1;130]))
    = [EvError (PEGoAway dbg_too_many_continuations reason_ENHANCE_YOUR_CALM);
       EvError (PEGoAway [] reason_PROTOCOL_ERROR)].
Proof. vm_compute. repeat split; reflexivity. Qed.

(* [fr] is exactly one frame: a head announcing the length of what follows *)
Definition one_frame (fr : list N) : Prop :=
  exists k fl sid p, fr = head_encode k fl sid (lenN p) ++ p /\ lenN p < 16777216.

Lemma one_frame_len fr : one_frame fr -> (9 <= length fr)%nat.
Proof. intros (k & fl & sid & p & -> & _). rewrite app_length, length_head_encode. lia. Qed.

Lemma rfc_split_step fuel fr rest :
  one_frame fr ->
  rfc_split (S fuel) (fr ++ rest) = let (fs, t) := rfc_split fuel rest in (fr :: fs, t).
Proof.
  intros (k & fl & sid & p & -> & Hp).
  cbn [rfc_split]. rewrite <- app_assoc. rewrite (declared_length_head k fl sid (lenN p) (p ++ rest) Hp).
  change olen with lenN. change take with takeN. change drop with dropN.
  assert (Hl : lenN (head_encode k fl sid (lenN p) ++ p) = 9 + lenN p) by (rewrite lenN_app, lenN_head_encode; reflexivity).
  rewrite app_assoc.
  destruct (9 + lenN p <=? lenN ((head_encode k fl sid (lenN p) ++ p) ++ rest)) eqn:E.
  2:{ apply N.leb_gt in E. rewrite lenN_app, Hl in E. lia. }
  rewrite <- Hl. rewrite takeN_app_exact, dropN_app_exact. reflexivity.
Qed.

Lemma rfc_split_concat : forall fs fuel,
  Forall one_frame fs -> (length fs < fuel)%nat -> rfc_split fuel (concat fs) = (fs, []).
Proof.
  induction fs as [|fr fs IH]; intros fuel Hall Hf.
  - destruct fuel; [lia|]. reflexivity.
  - destruct fuel as [|fuel]; [lia|]. inversion Hall as [|x l H1 H2]; subst.
    cbn [concat]. rewrite (rfc_split_step fuel fr (concat fs) H1).
    rewrite (IH fuel H2) by (cbn [length] in Hf; lia). reflexivity.
Qed.

Lemma length_concat_frames fs : Forall one_frame fs -> (length fs <= length (concat fs))%nat.
Proof.
  induction fs as [|fr fs IH]; intros Hall; [cbn; lia|].
  inversion Hall as [|x l H1 H2]; subst. cbn [concat length]. rewrite app_length.
  pose proof (one_frame_len fr H1). specialize (IH H2). lia.
Qed.

Lemma rfc_frames_concat fs : Forall one_frame fs -> rfc_frames (concat fs) = (fs, []).
Proof.
  intros Hall. unfold rfc_frames. apply rfc_split_concat; [exact Hall|].
  pose proof (length_concat_frames fs Hall). lia.
Qed.

Fixpoint cont_frames (fuel : nat) (max sid : N) (rest : list N) : list (list N) :=
  match fuel with
  | O => []
  | S fuel' =>
      if max <? lenN rest
      then (head_encode kind_continuation 0 sid max ++ takeN max rest) :: cont_frames fuel' max sid (dropN max rest)
      else [head_encode kind_continuation headers_END_HEADERS sid (lenN rest) ++ rest]
  end.

Lemma continuations_encode_frames max sid :
  1 <= max -> max <= MAX_MAX_FRAME_SIZE ->
  forall fuel rest, (length rest < fuel)%nat ->
    continuations_encode fuel max sid rest = EOk (concat (cont_frames fuel max sid rest)).
Proof.
  intros H1 H2. induction fuel as [|fuel IH]; intros rest Hf; [lia|].
  cbn [continuations_encode cont_frames]. rewrite continuation_encode_eq by assumption.
  destruct (max <? lenN rest) eqn:E.
  - apply N.ltb_lt in E. pose proof (length_dropN_lt max rest H1 E) as Hlt.
    rewrite (IH (dropN max rest)) by lia. cbn [concat].
    change (headers_END_HEADERS - headers_END_HEADERS) with 0. reflexivity.
  - cbn [concat]. rewrite app_nil_r. reflexivity.
Qed.

Lemma with_continuations_split max k flags sid prefix block :
  1 <= max -> max <= MAX_MAX_FRAME_SIZE -> has_bit flags headers_END_HEADERS = true ->
  lenN prefix <= max -> max < lenN prefix + lenN block ->
  with_continuations max sid (header_block_encode k flags sid prefix block (max + HEADER_LEN))
  = EOk ((head_encode k (flags - headers_END_HEADERS) sid max ++ prefix ++ takeN (max - lenN prefix) block)
         ++ concat (cont_frames (S (length (dropN (max - lenN prefix) block))) max sid
                      (dropN (max - lenN prefix) block))).
Proof.
  intros H1 Hmax Hb Hp Hl. rewrite header_block_encode_split by assumption. cbn [with_continuations].
  rewrite continuations_encode_frames by (assumption || apply Nat.lt_succ_diag_r). reflexivity.
Qed.

Lemma rfc_parse_continuation max fl sid p :
  fl < 256 -> sid < 2147483648 -> (sid =? 0) = false -> lenN p <= max -> max <= MAX_MAX_FRAME_SIZE ->
  rfc_parse_frame max (head_encode kind_continuation fl sid (lenN p) ++ p)
  = Accept (WContinuation sid (flag fl F_END_HEADERS) p).
Proof.
  intros Hfl Hs Hs0 Hp Hmax. unfold MAX_MAX_FRAME_SIZE in Hmax.
  rewrite rfc_parse_encoded by (assumption || reflexivity || lia). frame_type. rewrite Hs0. reflexivity.
Qed.

(* each of them is one frame, within the limit, and reads as a CONTINUATION of the stream; only the
   last carries END_HEADERS; the fragments concatenate to [rest] *)
Lemma cont_frames_spec max sid :
  1 <= max -> max <= MAX_MAX_FRAME_SIZE -> (sid =? 0) = false -> sid < 2147483648 ->
  forall fuel rest, (length rest < fuel)%nat ->
    Forall one_frame (cont_frames fuel max sid rest) /\
    forall (o : open_block), open_stream o = sid ->
      exists ws, rfc_parse_all max (cont_frames fuel max sid rest) = Some ws /\
                 rfc_reassemble (Some o) ws = Some [open_close (open_extend o rest)].
Proof.
  intros H1 H2 Hs0 Hs. pose proof H2 as H2'. unfold MAX_MAX_FRAME_SIZE in H2'.
  induction fuel as [|fuel IH]; intros rest Hf; [lia|].
  cbn [cont_frames]. destruct (N.ltb_spec max (lenN rest)) as [E|E].
  - pose proof (length_dropN_lt max rest H1 E) as Hlt.
    destruct (IH (dropN max rest) ltac:(lia)) as [Hall Hre].
    assert (Hlt' : lenN (takeN max rest) = max) by (rewrite lenN_takeN; lia).
    replace (head_encode kind_continuation 0 sid max) with (head_encode kind_continuation 0 sid (lenN (takeN max rest)))
      by (rewrite Hlt'; reflexivity).
    split.
    + constructor; [|exact Hall]. eexists _, _, _, _. split; [reflexivity | lia].
    + intros o Ho. destruct (Hre (open_extend o (takeN max rest))) as (ws & Hp & Hr); [destruct o; exact Ho|].
      exists (WContinuation sid false (takeN max rest) :: ws). cbn [rfc_parse_all rfc_reassemble].
      rewrite rfc_parse_continuation, Hp, Ho, N.eqb_refl, Hr by (assumption || reflexivity || lia).
      split; [reflexivity|]. do 3 f_equal. destruct o; cbn [open_extend]; rewrite <- app_assoc, takeN_dropN; reflexivity.
  - split.
    + repeat constructor. eexists _, _, _, _. split; [reflexivity | lia].
    + intros o Ho. exists [WContinuation sid true rest]. cbn [rfc_parse_all rfc_reassemble].
      rewrite rfc_parse_continuation, Ho, N.eqb_refl by (assumption || reflexivity). split; reflexivity.
Qed.

Lemma rfc_accept_one_frame max bs w :
  rfc_parse_frame max bs = Accept w -> rfc_frames bs = ([bs], []).
Proof.
  unfold rfc_parse_frame, rfc_parse_frame_with.
  destruct bs as [|l2 [|l1 [|l0 after]]]; try discriminate.
  destruct (max <? _); [discriminate|].
  destruct after as [|ty [|fl [|s3 [|s2 [|s1 [|s0 payload]]]]]]; try discriminate.
  destruct (N.eqb_spec (l2 * 65536 + l1 * 256 + l0) (olen payload)) as [E|_]; cbn [negb]; [|discriminate].
  intros _.
  unfold rfc_frames. set (bs := l2 :: l1 :: l0 :: ty :: fl :: s3 :: s2 :: s1 :: s0 :: payload).
  assert (Hl : olen bs = 9 + olen payload) by (unfold bs, olen; cbn [length]; lia).
  cbn [rfc_split]. change (declared_length bs) with (Some (l2 * 65536 + l1 * 256 + l0)). rewrite E, <- Hl.
  change olen with lenN. change take with takeN. change drop with dropN.
  rewrite N.leb_refl, takeN_lenN, (dropN_all bs (lenN bs)) by apply N.le_refl. reflexivity.
Qed.

(* the opening frame carries [prefix] (the promised stream id) and the first [room] octets of the block *)
Lemma split_block_decodes max k flags sid prefix room block w0 o :
  1 <= max -> max <= MAX_MAX_FRAME_SIZE -> (sid =? 0) = false -> sid < 2147483648 ->
  k < 256 -> flags < 256 -> has_bit flags headers_END_HEADERS = true ->
  lenN prefix + room = max -> room < lenN block ->
  parse_payload k (flags - headers_END_HEADERS) sid (prefix ++ takeN room block) = Accept w0 ->
  (forall ws, rfc_reassemble None (w0 :: ws) = rfc_reassemble (Some o) ws) -> open_stream o = sid ->
  exists bs,
    with_continuations max sid (header_block_encode k flags sid prefix block (max + HEADER_LEN)) = EOk bs /\
    rfc_decode_stream max bs = Some [open_close (open_extend o (dropN room block))].
Proof.
  intros H1 Hmax Hs0 Hs Hk Hfl Hb Hroom Hlong Hp Hopen Ho. pose proof Hmax as Hmax'. unfold MAX_MAX_FRAME_SIZE in Hmax'.
  assert (Hlt : lenN (prefix ++ takeN room block) = max) by (rewrite lenN_app, lenN_takeN; lia).
  rewrite with_continuations_split by (assumption || lia). replace (max - lenN prefix) with room by lia.
  eexists. split; [reflexivity|]. rewrite <- Hlt at 2.
  destruct (cont_frames_spec max sid H1 Hmax Hs0 Hs _ (dropN room block) (Nat.lt_succ_diag_r _)) as [Hall Hre].
  destruct (Hre o Ho) as (ws & Hpa & Hr).
  assert (Hfirst : one_frame (head_encode k (flags - headers_END_HEADERS) sid (lenN (prefix ++ takeN room block))
                              ++ prefix ++ takeN room block))
    by (eexists _, _, _, _; split; [reflexivity | lia]).
  pose proof (rfc_frames_concat _ (Forall_cons _ Hfirst Hall)) as Hf. cbn [concat] in Hf.
  unfold rfc_decode_stream. rewrite Hf. cbn [rfc_parse_all].
  rewrite rfc_parse_encoded, Hp, Hpa by (assumption || lia). cbn [option_map]. rewrite Hopen. exact Hr.
Qed.

(* C12, serialise-then-parse, in general: whatever the encoder emits for a well-formed value --
   one frame, or HEADERS / PUSH_PROMISE followed by the CONTINUATION frames Encoder::unset_frame
   produces -- is cut by the reference splitter into complete frames, each accepted by the
   reference parser, and the reference reassembly (RFC 9113 4.3: same stream, nothing interleaved,
   END_HEADERS exactly on the last) yields exactly the value that was sent. *)
Theorem C12_roundtrip_stream : forall max f,
  42 <= max -> max <= MAX_MAX_FRAME_SIZE -> frame_wf max f = true ->
  exists bs, encode max f = EOk bs /\ rfc_decode_stream max bs = Some [wire_value_of f].
Proof.
  intros max f H42 Hmax Hwf.
  destruct (single_frame max f) eqn:Es.
  { destruct (C12_roundtrip max f H42 Hmax Hwf Es) as (bs & He & Hr & _).
    exists bs. split; [exact He|]. unfold rfc_decode_stream. rewrite (rfc_accept_one_frame max bs _ Hr).
    cbn [rfc_parse_all]. rewrite Hr.
    destruct f; try reflexivity; cbn [wire_value_of option_map rfc_reassemble].
    - apply frame_wf_headers in Hwf as (_ & _ & [->| ->] & _); reflexivity.
    - apply frame_wf_push_promise in Hwf as (_ & _ & -> & _). reflexivity. }
  destruct f as [| sid flags dep block | | sid flags promised block | | | | |]; try discriminate;
    cbn [single_frame] in Es; apply N.leb_gt in Es; cbn [encode].
  - (* HEADERS + CONTINUATION *)
    apply frame_wf_headers in Hwf as (Hs & Hs0 & Hfl & ->).
    assert (Hb4 : has_bit flags headers_END_HEADERS = true) by (destruct Hfl as [->| ->]; reflexivity).
    unfold headers_encode. rewrite Hb4.
    destruct (split_block_decodes max kind_headers flags sid [] max block
                (WHeaders sid (has_bit flags headers_END_STREAM) false None (takeN max block))
                (OpenHeaders sid (has_bit flags headers_END_STREAM) None (takeN max block)))
      as (bs & He & Hd); try assumption; try reflexivity; try lia.
    + frame_type. rewrite Hs0. destruct Hfl as [->| ->]; reflexivity.
    + exists bs. split; [exact He|]. rewrite Hd. cbn [open_extend open_close wire_value_of option_map].
      rewrite takeN_dropN, Hb4. reflexivity.
  - (* PUSH_PROMISE + CONTINUATION *)
    apply frame_wf_push_promise in Hwf as (Hs & Hs0 & -> & Hpr).
    unfold push_promise_encode. change (has_bit 4 headers_END_HEADERS) with true. cbv iota.
    destruct (split_block_decodes max kind_push_promise 4 sid (enc_u32 promised) (max - 4) block
                (WPushPromise sid false promised (takeN (max - 4) block))
                (OpenPush sid promised (takeN (max - 4) block)))
      as (bs & He & Hd); try assumption; try reflexivity; try lia.
    + change (lenN (enc_u32 promised)) with 4. lia.
    + frame_type. rewrite Hs0. change (flag (4 - headers_END_HEADERS) F_PADDED) with false.
      unfold enc_u32. cbn [pad_length app strip_trailing]. rewrite u31_of_enc by exact Hpr. reflexivity.
    + exists bs. split; [exact He|]. rewrite Hd. cbn [open_extend open_close wire_value_of].
      rewrite takeN_dropN. reflexivity.
Qed.

(* non-vacuity: a block of 200 octets under a limit of 64 makes HEADERS + three CONTINUATIONs *)
Example C12_roundtrip_stream_example :
  let f := FHeaders 1 (headers_END_HEADERS + headers_END_STREAM) None (repeat 65 200) in
  frame_wf 64 f = true /\ single_frame 64 f = false /\
  (match encode 64 f with
   | EOk bs => rfc_decode_stream 64 bs = Some [wire_value_of f] /\
               payload_lengths (S (length bs)) bs = Some [64; 64; 64; 8]
   | _ => False
   end).
Proof. vm_compute. repeat split; reflexivity. Qed.

(* the model's own reader (raw header blocks) reassembles what the encoder split: the block of
   200 octets sent under a limit of 64 comes back as one HEADERS event carrying the whole block *)
Example reader_reassembles_encoder_output :
  let f := FHeaders 1 (headers_END_HEADERS + headers_END_STREAM) None (repeat 65 200) in
  match encode 64 f with
  | EOk bs =>
      map raw_event_frame (snd (feed hp_raw (rinit [] 16384 16777216) bs)) = [Some f] /\
      map raw_event_frame (snd (feed_all hp_raw (rinit [] 16384 16777216) (map (fun b => [b]) bs))) = [Some f]
  | _ => False
  end.
Proof. vm_compute. split; reflexivity. Qed.

(* the invariant behind no panic and no fuel exhaustion: what the length-delimited layer hands to
   decode_frame always has its 9 octet head *)
Definition ld_ok (s : ld_state) : Prop := match s with LdHead => True | LdData n => 9 <= n end.

Definition clean_event {HS} (e : event HS) : Prop :=
  match e with EvPanic => False | EvOutOfFuel => False | _ => True end.

Lemma ld_decode_ok max s buf :
  ld_ok s ->
  match ld_decode max s buf with
  | LdNeed s' => ld_ok s'
  | LdOut fr rest => (9 <= length fr)%nat
  | LdError => True
  end.
Proof.
  intros Hs.
  assert (Hd : forall n, 9 <= n ->
            match ld_data n buf with LdNeed s' => ld_ok s' | LdOut fr rest => (9 <= length fr)%nat | LdError => True end).
  { intros n Hn. unfold ld_data. destruct (lenN buf <? n) eqn:E; [exact Hn|]. apply N.ltb_ge in E.
    pose proof (lenN_takeN n buf) as Hl. unfold lenN in *. lia. }
  unfold ld_decode. destruct s as [|n]; [|apply Hd, Hs].
  destruct buf as [|l0 [|l1 [|l2 r]]]; try exact I.
  destruct (max <? _); [exact I|]. apply Hd. unfold ld_length_adjustment. lia.
Qed.

Lemma load_frame_result bs :
  match load_frame bs with PErrFrameSize => False | PNotOneFrame => False | _ => True end.
Proof.
  assert (Hl : forall k sid r,
            match lift k sid r with PErrFrameSize => False | PNotOneFrame => False | _ => True end)
    by (destruct r; exact I).
  unfold load_frame. destruct (parse_head bs) as [[h p]|]; [|exact I].
  destruct (kind_new (h_kind h)); try apply Hl; try exact I; destruct (_ =? 0); try exact I; apply Hl.
Qed.

Lemma decode_frame_no_panic {HS} (ops : hpack_ops HS) mh mc pt hs bytes :
  (9 <= length bytes)%nat ->
  match snd (decode_frame ops mh mc pt hs bytes) with
  | DEvent e => clean_event e
  | DStop e => clean_event e
  | DNone => True
  end.
Proof.
  intros H9. unfold decode_frame.
  pose proof (load_frame_never_panics bytes ltac:(unfold lenN; lia)) as Hnp.
  pose proof (load_frame_result bytes) as Hnf.
  destruct (parse_head bytes) as [[h payload]|] eqn:E;
    [|unfold load_frame in Hnp; rewrite E in Hnp; destruct (Hnp eq_refl)].
  destruct (_ && _); [exact I|].
  destruct (load_frame bytes) as [l|k sid e| | | | |]; try contradiction; try exact I.
  - destruct l as [f|sid eoh frag|]; [| |exact I].
    + destruct (is_header_frame f); [|exact I].
      destruct (hp_load ops mh (hp_begin ops hs) (frame_block f)) as [[oc rest] hs2].
      destruct oc; cbn [hpack_verdict]; try exact I;
        destruct (has_bit (frame_flags f) headers_END_HEADERS); exact I.
    + destruct pt as [p|]; [|exact I].
      destruct (negb (frame_sid (pt_frame p) =? sid)); [exact I|].
      destruct (negb eoh && (mc <? pt_count p + 1)); [exact I|].
      destruct (_ && _); [exact I|].
      destruct (hp_load ops mh hs (pt_buf p ++ frag)) as [[oc rest] hs2].
      destruct oc; cbn [hpack_verdict]; try exact I; destruct eoh; exact I.
  - unfold load_error_event. destruct e, k; exact I.
Qed.

Lemma drain_clean {HS} (ops : hpack_ops HS) : forall st : rstate HS,
  ld_ok (r_ld st) -> Forall clean_event (snd (drain ops st)) /\ ld_ok (r_ld (fst (drain ops st))).
Proof.
  apply (drain_induction ops (fun st => ld_ok (r_ld st) -> _ /\ ld_ok (r_ld (fst (drain ops st))))).
  intros st IH Hl. rewrite drain_unfold.
  destruct (r_dead st); [split; [constructor | exact Hl]|].
  pose proof (ld_decode_ok (r_max_frame st) (r_ld st) (r_buf st) Hl) as Hok.
  destruct (ld_decode (r_max_frame st) (r_ld st) (r_buf st)) as [s|fr rest|] eqn:El;
    [split; [constructor | exact Hok] | | split; [repeat constructor | exact Hl]].
  pose proof (decode_frame_no_panic ops (r_max_hls st) (r_max_cont st) (r_partial st) (r_hs st) fr Hok) as Hc.
  destruct (decode_frame ops (r_max_hls st) (r_max_cont st) (r_partial st) (r_hs st) fr) as [[pt hs] d] eqn:Ed.
  specialize (IH fr rest pt hs d eq_refl Ed). cbn [snd] in Hc.
  destruct d as [|e|e]; [| |split; [repeat constructor; exact Hc | exact I]];
    specialize (IH ltac:(discriminate) I); [exact IH|].
  destruct (drain ops _) as [st' evs]. split; [constructor; [exact Hc | apply IH] | apply IH].
Qed.

(* from the initial state, under any chunking and any HPACK instance, the reader never reaches a
   Rust panic (slice index, assert) and the model never runs out of fuel *)
Theorem reader_never_panics {HS} (ops : hpack_ops HS) hs0 max_frame max_hls : forall chunks,
  Forall clean_event (snd (feed_all ops (rinit hs0 max_frame max_hls) chunks)).
Proof.
  assert (H : forall chunks (st : rstate HS), ld_ok (r_ld st) ->
            Forall clean_event (snd (feed_all ops st chunks)) /\ ld_ok (r_ld (fst (feed_all ops st chunks)))).
  { induction chunks as [|c cs IH]; intros st Hl; [split; [constructor | exact Hl]|].
    cbn [feed_all]. rewrite feed_drain.
    destruct (drain_clean ops (with_buf st (r_buf st ++ c)) Hl) as [Ha Hb].
    destruct (drain ops (with_buf st (r_buf st ++ c))) as [s1 e1].
    destruct (IH s1 Hb) as [Hc Hd]. destruct (feed_all ops s1 cs) as [s2 e2].
    split; [apply Forall_app; split; assumption | exact Hd]. }
  intros chunks. apply H. exact I.
Qed.

Lemma ld_decode_head max l0 l1 l2 r more :
  (l0 * 256 + l1) * 256 + l2 <= max ->
  lenN (l0 :: l1 :: l2 :: r) = (l0 * 256 + l1) * 256 + l2 + ld_length_adjustment ->
  ld_decode max LdHead ((l0 :: l1 :: l2 :: r) ++ more) = LdOut (l0 :: l1 :: l2 :: r) more.
Proof.
  intros Hmax Hlen. cbn [app ld_decode]. apply N.ltb_ge in Hmax. rewrite Hmax.
  change (l0 :: l1 :: l2 :: r ++ more) with ((l0 :: l1 :: l2 :: r) ++ more).
  unfold ld_data. rewrite <- Hlen, lenN_app.
  destruct (N.ltb_spec (lenN (l0 :: l1 :: l2 :: r) + lenN more) (lenN (l0 :: l1 :: l2 :: r))); [lia|].
  rewrite takeN_app_exact, dropN_app_exact. reflexivity.
Qed.

Lemma model_parse_ld max bs l more :
  model_parse max bs = POk l ->
  ld_decode max LdHead (bs ++ more) = LdOut bs more /\ load_frame bs = POk l.
Proof.
  unfold model_parse. destruct bs as [|l0 [|l1 [|l2 r]]]; try discriminate.
  destruct (N.ltb_spec max ((l0 * 256 + l1) * 256 + l2)); [discriminate|].
  destruct (N.eqb_spec (lenN (l0 :: l1 :: l2 :: r)) ((l0 * 256 + l1) * 256 + l2 + ld_length_adjustment));
    [|discriminate].
  intros Hl. split; [apply ld_decode_head; assumption | exact Hl].
Qed.

Lemma model_parse_max_mono max1 max2 bs l :
  model_parse max1 bs = POk l -> max1 <= max2 -> model_parse max2 bs = POk l.
Proof.
  unfold model_parse. destruct bs as [|l0 [|l1 [|l2 r]]]; try discriminate.
  destruct (N.ltb_spec max1 ((l0 * 256 + l1) * 256 + l2)); [discriminate|]. intros Hl Hle.
  destruct (N.ltb_spec max2 ((l0 * 256 + l1) * 256 + l2)); [lia | exact Hl].
Qed.

(* one complete frame at the front of the buffer is handed to decode_frame *)
Lemma drain_one_frame {HS} (ops : hpack_ops HS) (st : rstate HS) k fl sid p more :
  r_dead st = false -> r_ld st = LdHead ->
  r_buf st = (head_encode k fl sid (lenN p) ++ p) ++ more ->
  lenN p <= r_max_frame st -> lenN p < 16777216 ->
  drain ops st =
    let '(pt, hs, d) := decode_frame ops (r_max_hls st) (r_max_cont st) (r_partial st) (r_hs st)
                                     (head_encode k fl sid (lenN p) ++ p) in
    match d with
    | DNone => drain ops (set_core st more LdHead pt hs false)
    | DEvent e => let (st', evs) := drain ops (set_core st more LdHead pt hs false) in (st', e :: evs)
    | DStop e => (set_core st more LdHead pt hs true, [e])
    end.
Proof.
  intros Hd Hl Hb Hmax H24. rewrite drain_unfold, Hd, Hl, Hb.
  replace (ld_decode _ _ _) with (LdOut (head_encode k fl sid (lenN p) ++ p) more); [reflexivity|].
  symmetry.
  apply (ld_decode_head _ (lenN p / 65536 mod 256) (lenN p / 256 mod 256) (lenN p mod 256)
           ([k mod 256; fl mod 256] ++ enc_u32 sid ++ p) more); rewrite dec_u24_enc by exact H24; [exact Hmax|].
  rewrite !lenN_cons, !lenN_app. change (lenN [k mod 256; fl mod 256]) with 2. change (lenN (enc_u32 sid)) with 4.
  unfold ld_length_adjustment. lia.
Qed.

(* decode_frame, raw instance: the opening frame of a split block *)
Lemma decode_open_headers mh mc acc0 fl sid part :
  sid <> 0 -> sid < 2147483648 -> (fl = 0 \/ fl = 1) ->
  decode_frame hp_raw mh mc None acc0 (head_encode kind_headers fl sid (lenN part) ++ part) =
    (Some {| pt_frame := FHeaders sid fl None []; pt_buf := []; pt_count := 0 |}, part, DNone).
Proof.
  intros Hs Hs31 Hfl. apply N.eqb_neq in Hs. unfold decode_frame, load_frame.
  rewrite parse_head_encoded by (try assumption; destruct Hfl as [->| ->]; reflexivity).
  frame_type. rewrite headers_load_plain by tauto.
  destruct Hfl as [-> | ->]; reflexivity.
Qed.

Lemma decode_open_push_promise mh mc acc0 sid promised part :
  sid <> 0 -> sid < 2147483648 -> promised < 2147483648 ->
  decode_frame hp_raw mh mc None acc0
    (head_encode kind_push_promise 0 sid (lenN (enc_u32 promised ++ part)) ++ enc_u32 promised ++ part) =
    (Some {| pt_frame := FPushPromise sid 0 promised []; pt_buf := []; pt_count := 0 |}, part, DNone).
Proof.
  intros Hs Hs31 Hp. apply N.eqb_neq in Hs. unfold decode_frame, load_frame.
  rewrite parse_head_encoded by (assumption || reflexivity).
  frame_type. rewrite push_promise_load_plain by tauto. reflexivity.
Qed.

(* ... and its CONTINUATION frames *)
Lemma decode_continuation mh mc p acc fl sid frag :
  sid < 2147483648 -> frame_sid (pt_frame p) = sid -> pt_buf p = [] ->
  (fl = 0 \/ fl = 4) -> (fl = 0 -> pt_count p + 1 <= mc) ->
  decode_frame hp_raw mh mc (Some p) acc (head_encode kind_continuation fl sid (lenN frag) ++ frag) =
    if fl =? 0
    then (Some {| pt_frame := pt_frame p; pt_buf := []; pt_count := pt_count p + 1 |}, acc ++ frag, DNone)
    else (None, acc ++ frag, DEvent (EvHeaders (set_end_headers (pt_frame p)) (acc ++ frag))).
Proof.
  intros Hs31 Hsid Hbuf Hfl Hcnt. unfold decode_frame, load_frame.
  rewrite parse_head_encoded by (try assumption; destruct Hfl as [->| ->]; reflexivity).
  frame_type. cbn [andb negb h_sid h_flag]. rewrite Hsid, N.eqb_refl, Hbuf.
  destruct Hfl as [-> | ->]; [|reflexivity].
  cbn [negb andb has_bit]. change (has_bit 0 continuation_END_HEADERS) with false. cbn [negb andb].
  destruct (N.ltb_spec mc (pt_count p + 1)); [specialize (Hcnt eq_refl); lia | reflexivity].
Qed.

Lemma cont_frames_nonempty fuel max sid rest : (0 < fuel)%nat -> cont_frames fuel max sid rest <> [].
Proof. destruct fuel; [lia|]. intros _. cbn [cont_frames]. destruct (max <? lenN rest); discriminate. Qed.

Lemma drain_continuations smax sid :
  1 <= smax -> smax <= MAX_MAX_FRAME_SIZE -> sid < 2147483648 ->
  forall fuel rest (st : rstate (list N)) F0 acc cnt more,
    (length rest < fuel)%nat -> smax <= r_max_frame st ->
    r_dead st = false -> r_ld st = LdHead ->
    r_buf st = concat (cont_frames fuel smax sid rest) ++ more ->
    r_partial st = Some {| pt_frame := F0; pt_buf := []; pt_count := cnt |} ->
    frame_sid F0 = sid -> r_hs st = acc ->
    cnt + N.of_nat (length (cont_frames fuel smax sid rest)) <= r_max_cont st + 1 ->
    drain hp_raw st =
      let (s', evs) := drain hp_raw (set_core st more LdHead None (acc ++ rest) false) in
      (s', EvHeaders (set_end_headers F0) (acc ++ rest) :: evs).
Proof.
  intros H1 H2 Hs31. pose proof H2 as H2'. unfold MAX_MAX_FRAME_SIZE in H2'.
  induction fuel as [|fuel IH]; intros rest st F0 acc cnt more Hf Hmax Hd Hl Hb Hp Hsid Hhs Hcnt; [lia|].
  cbn [cont_frames] in Hb, Hcnt.
  destruct (N.ltb_spec smax (lenN rest)) as [E|E].
  - pose proof (length_dropN_lt smax rest H1 E) as Hlt.
    assert (Hlt' : lenN (takeN smax rest) = smax) by (rewrite lenN_takeN; lia).
    cbn [concat length] in Hb, Hcnt. rewrite <- app_assoc in Hb. rewrite <- Hlt' in Hb at 1.
    pose proof (cont_frames_nonempty fuel smax sid (dropN smax rest) ltac:(lia)) as Hne.
    assert (Hlen1 : 1 <= N.of_nat (length (cont_frames fuel smax sid (dropN smax rest))))
      by (destruct (cont_frames fuel smax sid (dropN smax rest)); [congruence | cbn [length]; lia]).
    rewrite (drain_one_frame hp_raw st kind_continuation 0 sid (takeN smax rest) _ Hd Hl Hb), Hp, Hhs by lia.
    rewrite (decode_continuation (r_max_hls st) (r_max_cont st) _ acc 0 sid (takeN smax rest) Hs31)
      by (cbn [pt_frame pt_buf pt_count]; auto; intros; lia).
    cbn [N.eqb pt_frame pt_count].
    rewrite (IH (dropN smax rest) _ F0 (acc ++ takeN smax rest) (cnt + 1) more); try reflexivity; try assumption.
    + norm. rewrite <- app_assoc, takeN_dropN. reflexivity.
    + lia.
    + norm. lia.
  - cbn [concat] in Hb. rewrite app_nil_r in Hb.
    rewrite (drain_one_frame hp_raw st kind_continuation headers_END_HEADERS sid rest _ Hd Hl Hb), Hp, Hhs by lia.
    rewrite (decode_continuation (r_max_hls st) (r_max_cont st) _ acc headers_END_HEADERS sid rest Hs31)
      by (cbn [pt_frame pt_buf pt_count]; auto; discriminate).
    reflexivity.
Qed.

(* the number of CONTINUATION frames the encoder needs for [f] under the limit [smax] *)
Definition continuations_needed (smax : N) (f : frame) : N :=
  match f with
  | FHeaders sid _ _ block =>
      if smax <? lenN block
      then N.of_nat (length (cont_frames (S (length (dropN smax block))) smax sid (dropN smax block)))
      else 0
  | FPushPromise sid _ _ block =>
      if smax - 4 <? lenN block
      then N.of_nat (length (cont_frames (S (length (dropN (smax - 4) block))) smax sid (dropN (smax - 4) block)))
      else 0
  | _ => 0
  end.

(* [Hopen]: the opening frame opens a header block, whatever part of the block it carries *)
Lemma split_block_read smax rmax hls k flags sid prefix room block F0 :
  1 <= smax -> smax <= MAX_MAX_FRAME_SIZE -> smax <= rmax -> sid <> 0 -> sid < 2147483648 ->
  has_bit flags headers_END_HEADERS = true -> lenN prefix + room = smax -> room < lenN block ->
  (forall mh mc part,
     decode_frame hp_raw mh mc None []
       (head_encode k (flags - headers_END_HEADERS) sid (lenN (prefix ++ part)) ++ prefix ++ part)
     = (Some {| pt_frame := F0; pt_buf := []; pt_count := 0 |}, part, DNone)) ->
  frame_sid F0 = sid ->
  N.of_nat (length (cont_frames (S (length (dropN room block))) smax sid (dropN room block)))
    <= calc_max_continuation_frames hls rmax + 1 ->
  exists bs,
    with_continuations smax sid (header_block_encode k flags sid prefix block (smax + HEADER_LEN)) = EOk bs /\
    snd (feed hp_raw (rinit [] rmax hls) bs) = [EvHeaders (set_end_headers F0) block].
Proof.
  intros H1 Hmax Hr Hs0 Hs Hb Hroom Hlong Hopen Hsid Hcnt. pose proof Hmax as Hmax'. unfold MAX_MAX_FRAME_SIZE in Hmax'.
  assert (Hlt : lenN (prefix ++ takeN room block) = smax) by (rewrite lenN_app, lenN_takeN; lia).
  rewrite with_continuations_split by (assumption || lia). replace (smax - lenN prefix) with room by lia.
  eexists. split; [reflexivity|]. rewrite <- Hlt at 1.
  rewrite feed_drain. set (st := with_buf (rinit [] rmax hls) _).
  rewrite (drain_one_frame hp_raw st k _ sid (prefix ++ takeN room block) _ eq_refl eq_refl eq_refl)
    by (unfold st, rinit; norm; lia).
  unfold st at 1 2 3 4, rinit. norm. rewrite Hopen.
  rewrite (drain_continuations smax sid H1 Hmax Hs _ (dropN room block) _ F0 (takeN room block) 0 []
             (Nat.lt_succ_diag_r _));
    try reflexivity; [rewrite takeN_dropN; reflexivity | exact Hr | symmetry; apply app_nil_r | exact Hsid | exact Hcnt].
Qed.

(* C12, serialise-then-parse inside the model: what Encoder::buffer / unset_frame emit for [f] under the
   sender's limit [smax], fed to the reader (receive limit [rmax] >= smax, raw header blocks), comes out
   as exactly one event carrying [f] -- for CONTINUATION runs as long as the receiver's
   CONTINUATION-flood limit is not exceeded. *)
Theorem C12_roundtrip_reader : forall smax rmax hls f,
  42 <= smax -> smax <= MAX_MAX_FRAME_SIZE -> smax <= rmax ->
  frame_wf smax f = true ->
  continuations_needed smax f <= calc_max_continuation_frames hls rmax + 1 ->
  exists bs,
    encode smax f = EOk bs /\
    map raw_event_frame (snd (feed hp_raw (rinit [] rmax hls) bs)) = [Some f].
Proof.
  intros smax rmax hls f H42 Hmax Hr Hwf Hcont.
  destruct (single_frame smax f) eqn:Es.
  { destruct (C12_roundtrip smax f H42 Hmax Hwf Es) as (bs & He & _ & Hm).
    exists bs. split; [exact He|].
    apply (model_parse_max_mono smax rmax) in Hm; [|exact Hr].
    destruct (model_parse_ld rmax bs _ [] Hm) as [Hld Hlf]. rewrite app_nil_r in Hld.
    rewrite feed_drain, drain_unfold. unfold rinit. norm. cbn [app]. rewrite Hld. unfold decode_frame. rewrite Hlf.
    destruct (parse_head bs) as [[h p]|] eqn:Eh; [|unfold load_frame in Hlf; rewrite Eh in Hlf; discriminate].
    cbn [andb].
    destruct f; try reflexivity.
    - apply frame_wf_headers in Hwf as (_ & _ & [->| ->] & _); reflexivity.
    - apply frame_wf_push_promise in Hwf as (_ & _ & -> & _). reflexivity. }
  destruct f as [| sid flags dep block | | sid flags promised block | | | | |]; try discriminate;
    cbn [single_frame] in Es; apply N.leb_gt in Es; cbn [encode continuations_needed] in *.
  - (* HEADERS + CONTINUATION *)
    apply frame_wf_headers in Hwf as (Hs & Hs0 & Hfl & ->). apply N.eqb_neq in Hs0.
    assert (Hb4 : has_bit flags headers_END_HEADERS = true) by (destruct Hfl as [->| ->]; reflexivity).
    rewrite (proj2 (N.ltb_lt _ _) Es) in Hcont. unfold headers_encode. rewrite Hb4.
    destruct (split_block_read smax rmax hls kind_headers flags sid [] smax block
                (FHeaders sid (flags - headers_END_HEADERS) None []))
      as (bs & He & Hd); try assumption; try reflexivity; try lia.
    + intros mh mc part. apply decode_open_headers; try assumption. destruct Hfl as [->| ->]; [left | right]; reflexivity.
    + exists bs. split; [exact He|]. rewrite Hd. destruct Hfl as [->| ->]; reflexivity.
  - (* PUSH_PROMISE + CONTINUATION *)
    apply frame_wf_push_promise in Hwf as (Hs & Hs0 & -> & Hpr). apply N.eqb_neq in Hs0.
    assert (Es' : smax - 4 < lenN block) by lia.
    rewrite (proj2 (N.ltb_lt _ _) Es') in Hcont.
    unfold push_promise_encode. change (has_bit 4 headers_END_HEADERS) with true. cbv iota.
    destruct (split_block_read smax rmax hls kind_push_promise 4 sid (enc_u32 promised) (smax - 4) block
                (FPushPromise sid 0 promised []))
      as (bs & He & Hd); try assumption; try reflexivity; try lia.
    + change (lenN (enc_u32 promised)) with 4. lia.
    + intros mh mc part. apply decode_open_push_promise; assumption.
    + exists bs. split; [exact He|]. rewrite Hd. reflexivity.
Qed.

Example C12_roundtrip_reader_example :
  let f := FPushPromise 1 headers_END_HEADERS 2 (repeat 66 150) in
  frame_wf 64 f = true /\
  continuations_needed 64 f = 2 /\ calc_max_continuation_frames 16777216 16384 = 1280.
Proof. vm_compute. repeat split; reflexivity. Qed.

(* HeaderBlock::is_malformed (literal instance): once a fragment made the block malformed, no
   later fragment can make it valid again, however the block is cut into HEADERS / CONTINUATION
   fragments *)
Lemma lit_loop_malformed_sticky : forall fuel max_hls st hsz buf,
  let '(oc, rest, st') := lit_loop fuel max_hls st hsz true buf in
  oc <> HpOk /\ lt_malformed st' = true.
Proof.
  induction fuel as [|fuel IH]; intros max_hls st hsz buf; cbn [lit_loop]; [split; [discriminate | reflexivity]|].
  destruct buf as [|b after_type]; [split; [discriminate | reflexivity]|].
  destruct (negb ((b =? 0) || (b =? 16))); [split; [discriminate | reflexivity]|].
  destruct (decode_str after_type) as [name after_name| | |]; try (split; [discriminate | reflexivity]).
  destruct (decode_str after_name) as [value rest0| | |]; try (split; [discriminate | reflexivity]).
  destruct (negb _); [split; [discriminate | reflexivity]|].
  destruct (_ || _); [apply IH|].
  destruct (_ <? _); [split; [discriminate | reflexivity] | apply IH].
Qed.

(* the flag a call of load leaves behind is at least the one it started from *)
Lemma lit_loop_malformed_mono : forall fuel max_hls st hsz m buf oc rest st',
  lit_loop fuel max_hls st hsz m buf = (oc, rest, st') ->
  m = true -> lt_malformed st' = true.
Proof.
  intros fuel max_hls st hsz m buf oc rest st' H ->.
  pose proof (lit_loop_malformed_sticky fuel max_hls st hsz buf) as Hs. rewrite H in Hs. apply Hs.
Qed.

(* a load that meets a connection-specific field ends with the flag set, also when it ends NeedMore *)
Theorem hp_lit_malformed_sticky max_hls (hs : lit_state) buf :
  lt_malformed hs = true ->
  let '(oc, rest, hs') := hp_load hp_lit max_hls hs buf in
  oc <> HpOk /\ lt_malformed hs' = true.
Proof.
  intros Hm. cbn [hp_lit hp_load]. rewrite Hm. apply lit_loop_malformed_sticky.
Qed.

(* hence: with a header block open whose state is already malformed, no CONTINUATION -- in particular
   not the one carrying END_HEADERS -- makes decode_frame deliver the frame *)
Theorem malformed_block_never_delivered mh mc p (hs : lit_state) bytes f hs'' :
  lt_malformed hs = true ->
  snd (decode_frame hp_lit mh mc (Some p) hs bytes) <> DEvent (EvHeaders f hs'').
Proof.
  intros Hm. unfold decode_frame.
  destruct (parse_head bytes) as [[h payload]|] eqn:E; [|discriminate].
  destruct (kind_new (h_kind h)) eqn:K; cbn [andb negb snd]; try discriminate.
  rewrite (load_frame_continuation bytes h payload E K).
  destruct (negb (frame_sid (pt_frame p) =? h_sid h)); [discriminate|].
  destruct (_ && _); [discriminate|].
  destruct (_ && _); [discriminate|].
  pose proof (hp_lit_malformed_sticky mh hs (pt_buf p ++ payload) Hm) as Hst.
  destruct (hp_load hp_lit mh hs (pt_buf p ++ payload)) as [[oc rest] hs2]. destruct Hst as [Hoc _].
  destruct oc; try congruence; cbn [hpack_verdict snd];
    destruct (has_bit (h_flag h) continuation_END_HEADERS); discriminate.
Qed.

(* regression for the defect repaired by 3695110 "fix: a header block stays malformed when it continues
   in a CONTINUATION frame": a block with `connection: close` is refused with a stream error whether it
   arrives in one frame, or cut in the middle of the field that follows the offending one *)
Example malformed_verdict_survives_fragmentation :
  let lit name value := [0; N.of_nat (length name)] ++ name ++ [N.of_nat (length value)] ++ value in
  let block := lit [120; 45; 97] [49] ++ lit s_connection [99; 108; 111; 115; 101] ++ lit [120; 45; 98] [50] in
  let head ty fl len := [0; 0; len; ty; fl; 0; 0; 0; 1] in
  let cut := 27 in
  let whole := head 1 4 (lenN block) ++ block in
  let split := head 1 0 cut ++ takeN cut block ++ head 9 4 (lenN block - cut) ++ dropN cut block in
  snd (feed hp_lit (rinit lit_empty 16384 16777216) whole) = [EvError (PEReset 1 reason_PROTOCOL_ERROR)] /\
  snd (feed hp_lit (rinit lit_empty 16384 16777216) split) = [EvError (PEReset 1 reason_PROTOCOL_ERROR)].
Proof. vm_compute. split; reflexivity. Qed.
