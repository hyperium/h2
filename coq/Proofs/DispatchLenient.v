(* C09 at the dispatch layer: the classes where the faithful model is more lenient than RFC 9113 5.1 demands
   (Proofs/DispatchRecv.v `lenient`): closed witnesses.  Each satisfies every hypothesis of
   recv_conn_error_required except `lenient = false`, and the step does NOT end in a connection error.  Then the two
   classes that were defects of h2, found here and repaired since (28d67d9, 60d7633): there the step does end so. *)
From H2V Require Import Base.Tac Base.Bytes Model.StreamState Ref.Rfc9113Stream Proofs.StreamStateProofs
  Model.Dispatch Proofs.DispatchRecv.
Local Open Scope N_scope.

Definition mk_conn (ro : role) (slab : list (N * srec)) (ids : list (N * N)) (snext rnext : N) : conn :=
  mkC ro true true slab ids (Some snext) (Some rnext) MAX_ID MAX_ID None None.

Definition robs_ok : robs := mkR false true.
Definition wobs_ok : wobs := mkW false true true.
Definition pobs_ok : pobs := mkP true true true true.
Definition dobs_ok : dobs := mkD DOk true false true true true.
Definition hobs_ok : hobs := mkH true true HOk true true false.

(* what the reaction theorem would conclude *)
Definition reacts (st : conn) (l : label) : bool :=
  match step st l with
  | Ok _ outs => is_conn_error (result_of outs)
  | _ => true
  end.

Definition demands_conn_error (st : conn) (sid : N) (t : ftype) : bool :=
  match iget st sid with
  | Some (_, r) =>
    wf_shape (c_role st) sid r &&
    match receiver_must_for (is_local_init (c_role st) sid) (fst (pview (c_role st) r)) (snd (pview (c_role st) r)) t with
    | conn_error => true
    | _ => false
    end
  | None => false
  end.

(* st_l1: a server has promised stream 2, the PUSH_PROMISE is still queued (the peer cannot know the stream): the peer's
   RST_STREAM on it is accepted and resets the stream *)
Definition st_l1 : conn :=
  mk_conn Server [(1, mkS 1 (HalfClosedRemote Streaming) false false false [QPush 2] None);
                  (2, mkS 2 ReservedLocal false true false [] None)] [(1, 1); (2, 2)] 4 3.
Example lenient_promise_unsent :
  demands_conn_error st_l1 2 RST_STREAM = true /\ reacts st_l1 (LRecvReset 2 8 robs_ok) = false /\
  demands_conn_error st_l1 2 WINDOW_UPDATE = true /\ reacts st_l1 (LRecvWindowUpdate 2 wobs_ok) = false.
Proof. vm_compute. auto. Qed.

(* st_l2: a request reset by the application before it was sent (still waiting for a concurrency slot: idle for the peer):
   DATA on it is ignored *)
Definition st_l2 : conn :=
  mk_conn Client [(1, mkS 1 (Closed (CError (EReset 1 8 User))) true false true
                         [QHeaders false false; QReset 8] None)] [(1, 1)] 3 2.
Example lenient_reset_before_sent :
  demands_conn_error st_l2 1 DATA = true /\ reacts st_l2 (LRecvData 1 false dobs_ok) = false.
Proof. vm_compute. auto. Qed.

(* repaired by 28d67d9 (found with this model, replays corpus/dispatch/lenient_push_on_pending_open.json and
   lenient_reserved_remote.json): a PUSH_PROMISE on a request that has not been sent yet (st_l3), on a request reset
   before it was sent (st_l2), and on a stream that is itself pushed (st_l5: reserved (remote) at a client) used to be
   accepted (the nested promise was reserved and parked where no API reaches it); now each is a connection error *)
Definition st_l3 : conn :=
  mk_conn Client [(1, mkS 1 (Open Streaming AwaitingHeaders) true false false [QHeaders false false] None)] [(1, 1)] 3 2.
Definition st_l5 : conn :=
  mk_conn Client [(2, mkS 2 ReservedRemote false false false [] None)] [(2, 2)] 1 4.
Example push_only_on_a_seen_request :
  demands_conn_error st_l3 1 PUSH_PROMISE = true /\ reacts st_l3 (LRecvPushPromise 1 2 pobs_ok 9) = true /\
  demands_conn_error st_l2 1 PUSH_PROMISE = true /\ reacts st_l2 (LRecvPushPromise 1 2 pobs_ok 9) = true /\
  demands_conn_error st_l5 2 PUSH_PROMISE = true /\ reacts st_l5 (LRecvPushPromise 2 4 pobs_ok 9) = true.
Proof. vm_compute. repeat split. Qed.

(* st_l4: HEADERS without END_STREAM on a stream this server has promised (reserved (local)) get a stream error where
   5.1 demands a connection error *)
Definition st_l4 : conn :=
  mk_conn Server [(2, mkS 2 ReservedLocal false false false [] None)] [(2, 2)] 4 3.
Example lenient_headers_on_reserved_local :
  demands_conn_error st_l4 2 HEADERS = true /\ reacts st_l4 (LRecvHeaders 2 false false hobs_ok 9) = false.
Proof. vm_compute. auto. Qed.

(* on st_l5, a stream the peer has promised (reserved (remote)), WINDOW_UPDATE is accepted *)
Example lenient_on_reserved_remote :
  demands_conn_error st_l5 2 WINDOW_UPDATE = true /\ reacts st_l5 (LRecvWindowUpdate 2 wobs_ok) = false.
Proof. vm_compute. auto. Qed.

(* The repaired defect 60d7633.  Before it, the arm of Inner::recv_push_promise for a locally reset parent (repair
   631577b) refused the promised stream BEFORE looking at the promised identifier: *)
Definition old_refusal_arm (st : conn) (promised : N) : outcome :=
  if negb (c_push_local st) then res1 st [] (RErr conn_proto)
  else res1 st [ORxRefused promised] (RErr (lib_reset promised CANCEL)).

Definition st_l6 : conn :=
  mk_conn Client [(1, mkS 1 (Closed (CError (EReset 1 8 User))) false false true [] None)] [(1, 1)] 3 2.

(* st_l6: a client whose request 1 the application has reset.  An identifier of the wrong parity, never used (idle,
   and one of OUR OWN), was answered with RST_STREAM on that idle stream, and Inner::send_reset moved our own
   next_stream_id past it; the repaired step ends the connection *)
Theorem push_refusal_fix_needed :
  (match old_refusal_arm st_l6 7 with
   | Ok st1 outs =>
     result_of outs = RErr (EReset 7 CANCEL Library) /\ not_idle st1 7 = false /\ is_local_init (c_role st1) 7 = true /\
     match step st1 (LPoll2Reset 7 CANCEL true true 9) with
     | Ok st2 outs2 => outs_queued outs2 = [(7, 3, false, false, CANCEL)] /\ c_send_next st2 = Some 9
     | _ => False
     end
   | _ => False
   end) /\
  (match step st_l6 (LRecvPushPromise 1 7 pobs_ok 9) with
   | Ok st1 outs => is_conn_error (result_of outs) = true /\ st1 = st_l6
   | _ => False
   end).
Proof. vm_compute. repeat split. Qed.

