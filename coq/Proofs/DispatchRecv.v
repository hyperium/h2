(* C09 at the dispatch layer: how Inner::recv_* reacts to every received frame, in every reachable and
   unreachable state of the store (the theorems are about one step from ANY state, hence about every
   history), for all observed inputs. *)
From H2V Require Import Base.Tac Base.Bytes Model.StreamState Ref.Rfc9113Stream Proofs.StreamStateProofs
  Model.Dispatch.
Local Open Scope N_scope.

Lemma sget_sset_same {A} k (r : A) l : sget k (sset k r l) = Some r.
Proof.
  induction l as [|[k' x] l IH]; cbn [sset sget].
  - rewrite N.eqb_refl; reflexivity.
  - destruct (k' =? k) eqn:E; cbn [sget]; rewrite E; auto.
Qed.

Lemma sget_sset_other {A} k k2 (r : A) l : k2 <> k -> sget k2 (sset k r l) = sget k2 l.
Proof.
  intros Hne. induction l as [|[k' x] l IH]; cbn [sset sget].
  - destruct (N.eqb_spec k k2); congruence.
  - destruct (N.eqb_spec k' k) as [->|]; cbn [sget]; [destruct (N.eqb_spec k k2); congruence|rewrite IH; reflexivity].
Qed.

Lemma sget_sdel_other {A} k k2 (l : list (N * A)) : k2 <> k -> sget k2 (sdel k l) = sget k2 l.
Proof.
  intros Hne. induction l as [|[k' x] l IH]; cbn [sdel sget]; [reflexivity|].
  destruct (N.eqb_spec k' k) as [->|]; cbn [sget]; [destruct (N.eqb_spec k k2); congruence|rewrite IH; reflexivity].
Qed.

Lemma sset_same {A} k (r : A) l : sget k l = Some r -> sset k r l = l.
Proof.
  induction l as [|[k' x] l IH]; cbn [sget sset]; [discriminate|].
  destruct (k' =? k) eqn:E; intros H.
  - inversion H; subst. reflexivity.
  - rewrite IH; auto.
Qed.

Lemma kget_put_same st k r : kget (put st k r) k = Some r.
Proof. apply sget_sset_same. Qed.
Lemma kget_put_other st k k2 r : k2 <> k -> kget (put st k r) k2 = kget st k2.
Proof. apply sget_sset_other. Qed.
Lemma ids_put st k r : c_ids (put st k r) = c_ids st.
Proof. reflexivity. Qed.
Lemma kget_insert_same st k r : kget (insert st k r) k = Some r.
Proof. apply sget_sset_same. Qed.
Lemma kget_insert_other st k k2 r : k2 <> k -> kget (insert st k r) k2 = kget st k2.
Proof. apply sget_sset_other. Qed.
Lemma ids_insert_other st k r sid : sid <> s_id r -> sget sid (c_ids (insert st k r)) = sget sid (c_ids st).
Proof. intros; unfold insert; cbn. apply sget_sset_other; auto. Qed.
Lemma kget_with_recv_next st n k : kget (with_recv_next st n) k = kget st k.
Proof. reflexivity. Qed.
Lemma kget_with_refused st n k : kget (with_refused st n) k = kget st k.
Proof. reflexivity. Qed.

Lemma iget_kget st sid k r : iget st sid = Some (k, r) -> kget st k = Some r.
Proof.
  unfold iget. destruct (sget sid (c_ids st)); [|discriminate]. destruct (kget st n) eqn:E; [|discriminate].
  intros H; inversion H; subst; auto.
Qed.

Lemma put_same st k r : kget st k = Some r -> put st k r = st.
Proof. intros H. unfold put. unfold kget in H. rewrite sset_same by auto. destruct st; reflexivity. Qed.

Lemma one_parity id : is_client_init id && is_server_init id = false.
Proof.
  unfold is_client_init, is_server_init. destruct (id =? 0); [reflexivity|].
  destruct (N.eqb_spec (id mod 2) 1) as [->|]; reflexivity.
Qed.

Lemma res1_inv st o r st' outs : res1 st o r = Ok st' outs -> st' = st /\ outs = o ++ [ORes r].
Proof. unfold res1; intros H; inversion H; auto. Qed.

(* clear_queue fails the streams whose PUSH_PROMISE it drops (repair cc6ac6c) *)

Lemma failed_promise_idem c : failed_promise (failed_promise c) = failed_promise c.
Proof. reflexivity. Qed.

Definition same_or_failed (st st' : conn) (k : N) : Prop :=
  kget st' k = kget st k \/ exists c, kget st k = Some c /\ kget st' k = Some (failed_promise c).

Lemma same_or_failed_refl st k : same_or_failed st st k.
Proof. left; reflexivity. Qed.

Lemma same_or_failed_trans st1 st2 st3 k :
  same_or_failed st1 st2 k -> same_or_failed st2 st3 k -> same_or_failed st1 st3 k.
Proof.
  intros [H1|(c & H1 & H1')] [H2|(d & H2 & H2')].
  - left; congruence.
  - right. exists d. rewrite <- H1. auto.
  - right. exists c. split; auto. congruence.
  - right. exists c. split; auto. rewrite H2'. rewrite H1' in H2. inversion H2; subst. reflexivity.
Qed.

Lemma fail_promised_one_spec st f k : same_or_failed st (fail_promised_one st f) k.
Proof.
  destruct f; try apply same_or_failed_refl. cbn [fail_promised_one].
  destruct (iget st promised) as [[ck c]|] eqn:Ei; [|apply same_or_failed_refl].
  destruct (N.eq_dec k ck) as [->|Hne].
  - right. exists c. split; [exact (iget_kget _ _ _ _ Ei)|apply kget_put_same].
  - left. apply kget_put_other; auto.
Qed.

Lemma fail_promised_spec q : forall st k, same_or_failed st (fail_promised st q) k.
Proof.
  induction q as [|f q IH]; intros st k; cbn [fail_promised fold_left]; [apply same_or_failed_refl|].
  eapply same_or_failed_trans; [apply fail_promised_one_spec|apply IH].
Qed.

Lemma drop_promises_spec st o q k : same_or_failed st (drop_promises st o q) k.
Proof. unfold drop_promises. destruct (has_cleared o); [apply fail_promised_spec|apply same_or_failed_refl]. Qed.

Fixpoint no_push (q : list qframe) : bool :=
  match q with [] => true | QPush _ :: _ => false | _ :: q' => no_push q' end.

Lemma fail_promised_no_push q : forall st, no_push q = true -> fail_promised st q = st.
Proof.
  induction q as [|f q IH]; intros st H; cbn [fail_promised fold_left]; auto.
  destruct f; cbn [no_push] in H; try discriminate; cbn [fail_promised_one]; apply IH; auto.
Qed.

Lemma drop_promises_no_push st o q : no_push q = true -> drop_promises st o q = st.
Proof. intros H. unfold drop_promises. destruct (has_cleared o); auto. apply fail_promised_no_push; auto. Qed.

Lemma drop_put_other st k r2 o q k0 :
  k0 <> k -> same_or_failed st (drop_promises (put st k r2) o q) k0.
Proof.
  intros Hne. eapply same_or_failed_trans; [left; apply kget_put_other; exact Hne|apply drop_promises_spec].
Qed.

Lemma drop_put_same st k r2 o q :
  is_reset (s_state r2) = true ->
  exists r', kget (drop_promises (put st k r2) o q) k = Some r' /\ is_reset (s_state r') = true.
Proof.
  intros Hr. destruct (drop_promises_spec (put st k r2) o q k) as [H|(c & H & H')].
  - exists r2. rewrite H, kget_put_same. auto.
  - exists (failed_promise c). auto.
Qed.

Fixpoint has_app (o : list out) : bool :=
  match o with [] => false | OApp _ _ :: _ => true | _ :: o' => has_app o' end.
Fixpoint has_emit (o : list out) : bool :=
  match o with [] => false | OEmit _ :: _ => true | _ :: o' => has_emit o' end.
Fixpoint refused_in (o : list out) : bool :=
  match o with [] => false | ORxRefused _ :: _ => true | _ :: o' => refused_in o' end.

Lemma has_app_app a b : has_app (a ++ b) = has_app a || has_app b.
Proof. induction a as [|x a IH]; cbn [app has_app]; auto. destruct x; auto. Qed.
Lemma has_emit_app a b : has_emit (a ++ b) = has_emit a || has_emit b.
Proof. induction a as [|x a IH]; cbn [app has_emit]; auto. destruct x; auto. Qed.
Lemma refused_in_app a b : refused_in (a ++ b) = refused_in a || refused_in b.
Proof. induction a as [|x a IH]; cbn [app refused_in]; auto. destruct x; auto. Qed.
Lemma outs_result_app a b : outs_result (a ++ b) = match outs_result a with Some x => Some x | None => outs_result b end.
Proof. induction a as [|x a IH]; cbn [app outs_result]; auto. destruct x; auto. Qed.
Lemma outs_result_app_res o r : outs_result (o ++ [ORes r]) = match outs_result o with Some x => Some x | None => Some r end.
Proof. apply outs_result_app. Qed.

(* the frame types of the received-frame labels *)
Definition recv_frame (l : label) : option (N * ftype) :=
  match l with
  | LRecvHeaders sid _ _ _ _ => Some (sid, HEADERS)
  | LRecvData sid _ _ => Some (sid, DATA)
  | LRecvReset sid _ _ => Some (sid, RST_STREAM)
  | LRecvWindowUpdate sid _ => Some (sid, WINDOW_UPDATE)
  | LRecvPushPromise sid _ _ _ => Some (sid, PUSH_PROMISE)
  | LRecvPriority sid => Some (sid, PRIORITY)
  | _ => None
  end.

(* the second identifier a PUSH_PROMISE names *)
Definition promised_of (l : label) : option N :=
  match l with LRecvPushPromise _ p _ _ => Some p | _ => None end.

(* the key of the one record a received frame can change: the one store.ids holds for the stream (for a
   PUSH_PROMISE: for nothing, the parent is not changed), or the fresh key of the record it inserts *)
Definition touched (st : conn) (l : label) : N :=
  match l with
  | LRecvHeaders sid _ _ _ nk => match iget st sid with Some (k, _) => k | None => nk end
  | LRecvData sid _ _ | LRecvReset sid _ _ | LRecvWindowUpdate sid _ =>
    match iget st sid with Some (k, _) => k | None => 0 end
  | LRecvPushPromise _ _ _ nk => nk
  | _ => 0
  end.

Definition result_of (o : list out) : result := match outs_result o with Some r => r | None => ROk end.

Lemma result_of_res o r : outs_result o = None -> result_of (o ++ [ORes r]) = r.
Proof. intros H. unfold result_of. rewrite outs_result_app_res, H. reflexivity. Qed.

Definition is_conn_error (r : result) : bool :=
  match r with RErr (EGoAway _ c _) => negb (c =? 0) | _ => false end.

(* the state of a stream as the peer can know it, from this endpoint's record *)
Definition pview (ro : role) (r : srec) : rfc_state * closed_how :=
  if s_ppush r then (idle, by_end_stream)
  else if s_popen r && negb (is_server ro) then (idle, by_end_stream)
  else if is_closed (s_state r) && negb (is_local_error (s_state r)) then (closed, how_of (s_state r))
  else if s_popen r then (reserved_local, by_end_stream)
  else (abs (s_state r), how_of (s_state r)).

(* the classes where h2 answers with a stream error or with silence where RFC 9113 5.1 demands a connection error
   (witnesses: Proofs/DispatchLenient.v) *)
Definition lenient (ro : role) (r : srec) (t : ftype) : bool :=
  s_ppush r
  || is_local_error (s_state r)
  || (match s_state r, t with
      | Idle, _ => true
      | ReservedLocal, HEADERS => true
      | ReservedRemote, WINDOW_UPDATE => true
      | _, _ => false
      end).

Fixpoint bad_reset_queued (o : list out) : bool :=
  match o with
  | [] => false
  | OQueue _ (QReset c) :: o' => violation_code c || bad_reset_queued o'
  | _ :: o' => bad_reset_queued o'
  end.

(* the endpoint penalises the peer: a connection error, or a stream error with a code that accuses the peer *)
Definition penalised (o : list out) : bool :=
  match result_of o with
  | RErr (EGoAway _ _ _) => true
  | RErr (EReset _ c Library) => violation_code c
  | _ => false
  end || bad_reset_queued o.

(* the observed verdicts that are not the peer's fault *)
Definition obs_fine (l : label) : bool :=
  match l with
  | LRecvHeaders _ eos info o _ => negb (info && eos) && match h_verdict o with HOk => true | _ => false end
                                   && (h_can_count o || h_quota o)
  | LRecvData _ _ o => match d_verdict o with DOk => true | _ => false end && d_budget o
  | LRecvReset _ _ o => r_quota o
  | LRecvWindowUpdate _ o => negb (w_overflow o)
  | LRecvPushPromise _ _ o _ => p_valid o
  | _ => true
  end.

(* RFC 9113 8.1: where the frame stands in the peer's message *)
Definition msg_fine (l : label) (s : state) : bool :=
  match l with
  | LRecvHeaders _ eos _ _ _ =>
    match recv_phase s with awaiting => true | body => eos | done => true end
  | LRecvData _ _ _ => match recv_phase s with awaiting => false | _ => true end
  | _ => true
  end.

(* 8.4 / 5.1.1: a PUSH_PROMISE is legal from a server to a client that has not disabled push, on a request of the
   client, and promises a fresh even identifier above all earlier ones *)
Definition conn_fine (st : conn) (l : label) : bool :=
  match l with
  | LRecvPushPromise sid p _ _ =>
    negb (is_server (c_role st)) && c_push_local st && is_server_init p &&
    match c_recv_next st with Some n => n <=? p | None => false end &&
    is_local_init (c_role st) sid
  | _ => true
  end.

Definition tolerable (v : verdict) : bool := match v with accept | tolerate => true | _ => false end.

(* an error that blames the frame (everything but the DATA-frame budget, which is charged after the frame was taken) *)
Definition blames (r : result) : bool :=
  match r with
  | RErr (EGoAway d _ _) => negb (list_N_eqb d TOO_MANY_DATA_FRAMES)
  | RErr _ => true
  | _ => false
  end.

Lemma send_reset_core_eq sid reason i r :
  send_reset_core sid reason i r =
  if is_reset (s_state r) then (r, [])
  else let r1 := set_state r (Closed (CError (EReset sid reason i))) in
       if closed_full r then (r1, [])
       else (set_q r1 ((if s_popen r then firstn 1 (s_q r) else []) ++ [QReset reason]) None,
             [OCleared sid; OQueue sid (QReset reason)]).
Proof.
  unfold send_reset_core, closed_full. destruct (is_reset (s_state r)); [reflexivity|].
  destruct (is_closed (s_state r) && _ && _); [reflexivity|].
  cbn [set_state s_popen]. destruct (s_popen r); reflexivity.
Qed.

Lemma send_reset_core_id sid reason i r r' o : send_reset_core sid reason i r = (r', o) -> s_id r' = s_id r.
Proof.
  rewrite send_reset_core_eq. destruct (is_reset (s_state r)); [|destruct (closed_full r)];
    intros H; inversion H; reflexivity.
Qed.

Lemma send_reset_core_outs sid reason i r :
  snd (send_reset_core sid reason i r) =
  if is_reset (s_state r) || closed_full r then [] else [OCleared sid; OQueue sid (QReset reason)].
Proof. rewrite send_reset_core_eq. destruct (is_reset (s_state r)); [|destruct (closed_full r)]; reflexivity. Qed.

Lemma send_reset_core_reset sid reason i r : is_reset (s_state (fst (send_reset_core sid reason i r))) = true.
Proof.
  rewrite send_reset_core_eq. destruct (is_reset (s_state r)) eqn:E; [exact E|]. destruct (closed_full r); reflexivity.
Qed.

Lemma enqueue_reset_expiration_eq c r : exists b, enqueue_reset_expiration c r = set_rexp r b.
Proof.
  unfold enqueue_reset_expiration. destruct (negb _ || _); [|destruct c]; [exists (s_rexp r)|exists true|exists (s_rexp r)];
    try reflexivity; destruct r; reflexivity.
Qed.

Lemma state_enqueue_reset_expiration c r : s_state (enqueue_reset_expiration c r) = s_state r.
Proof. destruct (enqueue_reset_expiration_eq c r) as [b ->]. reflexivity. Qed.

Lemma reset_on_err_eq sid res q c r :
  reset_on_recv_stream_err sid res q c r =
  match res with
  | RErr (EReset _ rs i) =>
    if q then (enqueue_reset_expiration c (fst (send_reset_core sid rs i r)),
               ORxRefused sid :: (if is_reset (s_state r) || closed_full r then []
                                  else [OCleared sid; OQueue sid (QReset rs)]), ROk)
    else (r, [], RErr too_many_internal_resets)
  | _ => (r, [], res)
  end.
Proof.
  destruct res as [| |[s rs i|d rs i|kk m]|u]; try reflexivity. cbn [reset_on_recv_stream_err].
  destruct q; [|reflexivity]. rewrite <- (send_reset_core_outs sid rs i r).
  destruct (send_reset_core sid rs i r); reflexivity.
Qed.

Lemma reset_on_err_no_app sid res q c r r' o res' :
  reset_on_recv_stream_err sid res q c r = (r', o, res') -> has_app o = false.
Proof.
  rewrite reset_on_err_eq. destruct res as [| |[s rs i|d rs i|kk m]|u]; try (intros H; inversion H; reflexivity).
  destruct q; intros H; inversion H; [destruct (_ || _)|]; reflexivity.
Qed.

(* reset_on_recv_stream_err: an error result that remains is a connection error with a non-zero code,
   or the input result *)
Lemma reset_on_err_result sid res q c r r' o res' :
  reset_on_recv_stream_err sid res q c r = (r', o, res') ->
  (res' = res /\ r' = r /\ o = [] /\ (forall s rs i, res <> RErr (EReset s rs i)))
  \/ (exists s rs i, res = RErr (EReset s rs i) /\
      ((q = true /\ res' = ROk /\ refused_in o = true /\ is_reset (s_state r') = true)
       \/ (q = false /\ res' = RErr too_many_internal_resets /\ r' = r /\ o = []))).
Proof.
  rewrite reset_on_err_eq.
  destruct res as [| |[s rs i|d rs i|kk m]|u]; try (intros H; inversion H; left; repeat split; congruence).
  right. exists s, rs, i. split; auto. destruct q; inversion H; auto.
  left. rewrite state_enqueue_reset_expiration. repeat split. apply send_reset_core_reset.
Qed.

Lemma recv_open_id_slab st id push can :
  match recv_open_id st id push can with OpRefused st1 | OpOpened st1 => c_slab st1 = c_slab st | _ => True end.
Proof.
  unfold recv_open_id. destruct (c_refused st); auto.
  destruct (if is_server (c_role st) then _ else _); auto.
  destruct (c_recv_next st); auto. destruct (id <? n); auto. destruct can; reflexivity.
Qed.

Fixpoint has_reset (o : list out) : bool :=
  match o with [] => false | OQueue _ (QReset _) :: _ => true | _ :: o' => has_reset o' end.

Lemma has_reset_app a b : has_reset (a ++ b) = has_reset a || has_reset b.
Proof. induction a as [|x a IH]; cbn [app has_reset]; auto. destruct x as [|? []| | | | | | |]; auto. Qed.

Definition spent (ends : bool) (r : srec) : Prop :=
  is_reset (s_state r) = true \/
  (s_q r = [] /\ s_infl r = None /\ (is_closed (s_state r) = true \/ (ends = true /\ is_idle (s_state r) = false))).

(* s1: the state the frame has moved r to when Send::send_reset looks at it, reset or closed only if r was, or closed
   by the frame's END_STREAM *)
Lemma spent_after ends r s1 :
  (is_reset s1 = true -> is_reset (s_state r) = true) ->
  (is_closed s1 = true -> is_closed (s_state r) = true \/ ends = true /\ is_idle (s_state r) = false) ->
  is_reset s1 || closed_full (set_state r s1) = true -> spent ends r.
Proof.
  intros Hr Hc H. unfold spent. destruct (is_reset s1); [auto|]. right.
  unfold closed_full in H. cbn [orb set_state s_state s_q s_infl] in H.
  destruct (is_closed s1); [|discriminate]. destruct (s_q r); [|discriminate]. destruct (s_infl r); [discriminate|]. auto.
Qed.

Lemma spent_self ends r : is_reset (s_state r) || closed_full r = true -> spent ends r.
Proof. apply (spent_after ends r (s_state r)); auto. Qed.

Definition answered (st : conn) (k : N) (ends : bool) (st' : conn) (o : list out) : Prop :=
  (exists r', kget st' k = Some r' /\ is_reset (s_state r') = true) /\
  (has_reset o = true \/ exists r, kget st k = Some r /\ spent ends r).

(* What a received frame does, in one statement: it changes at most the record of its stream and hands nothing to the
   codec; a frame that is refused or blamed is not handed to the application; a stream error answered inside the
   section (`answered`) leaves the record reset, with a RST_STREAM queued unless `spent` says there is nothing a reset
   could stop.  `ends` = the frame carries END_STREAM. *)
Definition recv_effect (st : conn) (k : N) (ends : bool) (st' : conn) (outs : list out) : Prop :=
  (forall k0, k0 <> k -> same_or_failed st st' k0) /\
  has_emit outs = false /\
  (blames (result_of outs) = true \/ refused_in outs = true -> has_app outs = false) /\
  (refused_in outs = true -> result_of outs = ROk -> answered st k ends st' outs).

Lemma effect_plain st k ends st' o res :
  (forall k0, k0 <> k -> same_or_failed st st' k0) ->
  has_emit o = false -> outs_result o = None ->
  (has_app o = true -> blames res = false /\ refused_in o = false) ->
  (refused_in o = true -> res = ROk -> answered st k ends st' o) ->
  recv_effect st k ends st' (o ++ [ORes res]).
Proof.
  intros H1 He Hr Ha Hf. unfold recv_effect, answered.
  rewrite has_emit_app, has_app_app, refused_in_app, has_reset_app, He, result_of_res by exact Hr.
  cbn [has_emit has_app refused_in has_reset]. rewrite !orb_false_r.
  split; [exact H1|]. split; [reflexivity|]. split; [|exact Hf].
  intros Hb. destruct (has_app o); [|reflexivity]. destruct (Ha eq_refl) as [Hb1 Hb2]. rewrite Hb1, Hb2 in Hb.
  destruct Hb; discriminate.
Qed.

Lemma effect_quiet st st1 k ends o res st' outs :
  c_slab st1 = c_slab st -> has_emit o = false -> has_app o = false -> outs_result o = None ->
  (refused_in o = true -> res <> ROk) ->
  res1 st1 o res = Ok st' outs -> recv_effect st k ends st' outs.
Proof.
  intros Hsl He Ha Hr Hf H. apply res1_inv in H as [-> ->].
  apply effect_plain; auto; [|congruence|intros H1 H2; destruct (Hf H1 H2)].
  intros k0 _. left. unfold kget. rewrite Hsl. reflexivity.
Qed.

(* What recv.rs makes of a frame on the record r, before Actions::reset_on_recv_stream_err: nothing for the codec, no
   refusal yet; the application hears of the frame only when it is taken; after a stream error the record is no more
   reset or finished than it was, unless the frame itself ended the stream. *)
Definition core_ok (ends : bool) (r : srec) (x : srec * list out * result) : Prop :=
  let '(r1, o1, res) := x in
  has_emit o1 = false /\ refused_in o1 = false /\ outs_result o1 = None /\
  (has_app o1 = true -> blames res = false) /\
  (forall s c i, res = RErr (EReset s c i) -> is_reset (s_state r1) || closed_full r1 = true ->
                 has_reset o1 = true \/ spent ends r).

Lemma core_ok_self ends r res : core_ok ends r (r, [], res).
Proof. repeat split; try discriminate. intros _ _ _ _ H. right. apply spent_self; exact H. Qed.

(* `oc`: what of the outputs decides whether promised streams are failed *)
Lemma effect_settle st sid k r ends x q c (oc : list out -> list out) dq st' outs :
  kget st k = Some r -> core_ok ends r x ->
  (let '(r1, o1, res) := x in
   let '(r2, o2, res2) := reset_on_recv_stream_err sid res q c r1 in
   res1 (drop_promises (put st k r2) (oc o2) dq) (o1 ++ o2) res2) = Ok st' outs ->
  recv_effect st k ends st' outs.
Proof.
  destruct x as [[r1 o1] res]. intros Hk (He & Hf & Hr & Ha & Hsp). rewrite reset_on_err_eq.
  assert (Hplain : forall res2, (has_app o1 = true -> blames res2 = false) ->
                   res1 (drop_promises (put st k r1) (oc []) dq) (o1 ++ []) res2 = Ok st' outs ->
                   recv_effect st k ends st' outs).
  { intros res2 Hb H. apply res1_inv in H as [-> ->]. rewrite app_nil_r. apply effect_plain; auto; [|congruence].
    intros; apply drop_put_other; auto. }
  destruct res as [| |[s rs i|d rs i|kk m]|u]; try exact (Hplain _ Ha).
  assert (Hna : has_app o1 = false) by (destruct (has_app o1); [discriminate (Ha eq_refl)|reflexivity]).
  destruct q; [|apply Hplain; congruence]. intros H; apply res1_inv in H as [-> ->].
  apply effect_plain.
  - intros; apply drop_put_other; auto.
  - rewrite has_emit_app, He. destruct (_ || _); reflexivity.
  - rewrite outs_result_app, Hr. destruct (_ || _); reflexivity.
  - rewrite has_app_app, Hna. destruct (_ || _); discriminate.
  - intros _ _. split.
    + apply drop_put_same. rewrite state_enqueue_reset_expiration. apply send_reset_core_reset.
    + rewrite has_reset_app. destruct (is_reset (s_state r1) || closed_full r1) eqn:E.
      * destruct (Hsp _ _ _ eq_refl eq_refl) as [->|Hs]; eauto.
      * left. apply orb_true_r.
Qed.

(* a record made by this very section is not spent: the reset is queued *)
Lemma effect_fresh st st1 k r ends st' outs :
  c_slab st1 = c_slab st -> is_idle (s_state r) = true ->
  recv_effect (insert st1 k r) k ends st' outs -> recv_effect st k ends st' outs.
Proof.
  intros Hsl Hi (H1 & H2 & H3 & H4). split; [|split; [exact H2|split; [exact H3|]]].
  - intros k0 Hne. specialize (H1 k0 Hne). unfold same_or_failed in *.
    rewrite kget_insert_other in H1 by exact Hne. unfold kget in *. rewrite <- Hsl. exact H1.
  - intros Hf Hr. destruct (H4 Hf Hr) as [Hx [Hq|(r0 & Hk0 & Hsp)]]; split; auto.
    exfalso. rewrite kget_insert_same in Hk0. inversion Hk0; subst r0. unfold spent in Hsp.
    destruct (s_state r); try discriminate. destruct Hsp as [Hsp|(_ & _ & [Hsp|[_ Hsp]])]; discriminate.
Qed.

Lemma recv_open_ok_state eos info s s1 b :
  recv_open eos info s = (s1, RBool b) ->
  is_reset s1 = false /\ (is_closed s1 = true -> eos = true /\ is_idle s = false).
Proof. d_state s; destruct eos, info; cbn; intros E; inversion E; subst; cbn; auto; split; auto; discriminate. Qed.

Lemma recv_headers_core_ok ro sid eos info o r :
  match recv_headers_core ro sid eos info o r with Some x => core_ok eos r x | None => True end.
Proof.
  unfold recv_headers_core. destruct (info && eos); [apply core_ok_self|].
  destruct (recv_open eos info (s_state r)) as [s1 [|b| | |e|]] eqn:Eo; try apply core_ok_self.
  destruct (recv_open_ok_state _ _ _ _ _ Eo) as [Hr Hc].
  assert (Herr : forall e, core_ok eos r (set_state r s1, [ORx sid (RxHeaders eos info)], RErr e)).
  { intros e. repeat split; try discriminate. intros _ _ _ _ H. right. apply (spent_after eos r s1); auto; congruence. }
  destruct (b && negb (h_can_count o)); [apply Herr|].
  destruct (h_verdict o); [|apply Herr|].
  - repeat split; auto; discriminate.
  - destruct (is_server ro && b); [|apply Herr].
    destruct (send_open true (s_state (set_state r s1))) as [s2 [| | | | |]]; auto.
    repeat split; auto; discriminate.
Qed.

Lemma recv_trailers_core_ok sid o r : core_ok true r (recv_trailers_core sid o r).
Proof.
  unfold recv_trailers_core. destruct (h_verdict o); try apply core_ok_self.
  destruct (recv_close (s_state r)) as [s1 [| | | |e|]]; try apply core_ok_self.
  repeat split; auto; discriminate.
Qed.

(* DATA, the frame budget of Inner::recv_data included *)
Lemma recv_data_core_ok sid eos o r :
  let '(r1, o1, res) := recv_data_core sid eos o r in
  core_ok eos r (r1, o1, match res with
                         | ROk | RIgnored => if negb eos && negb (d_budget o) then RErr too_many_data_frames else res
                         | x => x
                         end).
Proof.
  unfold recv_data_core.
  destruct (negb (is_local_error (s_state r)) && _); [apply core_ok_self|].
  destruct (is_local_error (s_state r)); [apply core_ok_self|].
  destruct (d_verdict o); try apply core_ok_self.
  (* DOk and DLenUnder: the same path from here *)
  all: destruct (eos && _); [apply core_ok_self|].
  all: destruct (if eos then recv_close (s_state r) else (s_state r, RUnit)) as [s1 [| | | | |]]; try apply core_ok_self.
  all: destruct (negb (d_is_recv o)); [|destruct (d_empty o && negb eos)].
  all: split; [destruct eos; reflexivity|]; split; [destruct eos; reflexivity|]; split; [destruct eos; reflexivity|].
  all: destruct (negb eos && _); split; auto; discriminate.
Qed.

Lemma recv_headers_on_effect st sid eos info o k r ins st' outs :
  kget st k = Some r -> recv_headers_on st sid eos info o k r ins = Ok st' outs -> recv_effect st k eos st' outs.
Proof.
  intros Hk. unfold recv_headers_on.
  destruct (s_popen r); [apply effect_quiet; destruct ins; easy|].
  destruct (is_local_error _); [apply effect_quiet; destruct ins; easy|].
  destruct (is_recv_headers _).
  - pose proof (recv_headers_core_ok (c_role st) sid eos info o r) as Ec.
    destruct (recv_headers_core _ _ _ _ _ _) as [[[r1 o1] res]|]; [|discriminate].
    (* OOpened in front changes nothing of what core_ok says *)
    destruct ins; [apply (effect_settle _ _ _ r _ (r1, OOpened sid :: o1, res) _ _ (fun o2 => o2))
                  |apply (effect_settle _ _ _ r _ (r1, o1, res) _ _ (fun o2 => o2))]; auto.
  - destruct eos; cbn [negb]; [|apply effect_quiet; destruct ins; easy].
    pose proof (recv_trailers_core_ok sid o r) as Ec. destruct (recv_trailers_core sid o r) as [[r1 o1] res].
    destruct ins; [apply (effect_settle _ _ _ r _ (r1, OOpened sid :: o1, res) _ _ (fun o2 => o2))
                  |apply (effect_settle _ _ _ r _ (r1, o1, res) _ _ (fun o2 => o2))]; auto.
Qed.

Theorem recv_step_effect st l sid t st' outs :
  recv_frame l = Some (sid, t) -> step st l = Ok st' outs ->
  recv_effect st (touched st l) (match l with LRecvHeaders _ eos _ _ _ | LRecvData _ eos _ => eos | _ => false end)
              st' outs.
Proof.
  intros Hl. destruct l; try discriminate Hl; inversion Hl; subst; clear Hl; cbn [step touched].
  - unfold step_recv_headers. destruct (sid =? 0); [discriminate|].
    destruct (c_recv_max st <? sid); [apply effect_quiet; easy|].
    destruct (iget st sid) as [[k r]|] eqn:Ei; [apply recv_headers_on_effect; eapply iget_kget; eauto|].
    destruct (_ && may_have_forgotten st sid); [apply effect_quiet; easy|].
    pose proof (recv_open_id_slab st sid false (h_can_open o)) as Ho.
    destruct (recv_open_id st sid false (h_can_open o)) as [e|st1|st1|]; try discriminate;
      try (apply effect_quiet; easy).
    destruct (kget st1 nk); [discriminate|]. intros H.
    apply (effect_fresh st st1 nk (new_rec sid)); [exact Ho|reflexivity|].
    eapply recv_headers_on_effect; [apply kget_insert_same|exact H].
  - unfold step_recv_data. destruct (sid =? 0); [discriminate|].
    destruct (iget st sid) as [[k r]|] eqn:Ei.
    + pose proof (recv_data_core_ok sid eos o r) as Ec. destruct (recv_data_core sid eos o r) as [[r1 o1] res].
      exact (effect_settle _ _ _ r _ (r1, o1, _) _ _ (fun o2 => o2) _ _ _ (iget_kget _ _ _ _ Ei) Ec).
    + destruct (c_recv_max st <? sid); [unfold ignore_data; destruct (d_verdict o); apply effect_quiet; easy|].
      destruct (may_have_forgotten st sid); [destruct (d_verdict o)|]; apply effect_quiet; easy.
  - unfold step_recv_reset. destruct (sid =? 0); [apply effect_quiet; easy|].
    destruct (_ && _); [apply effect_quiet; easy|].
    destruct (iget st sid) as [[k r]|] eqn:Ei; [|destruct (not_idle st sid); apply effect_quiet; easy].
    destruct (_ && _); [apply effect_quiet; easy|].
    destruct (negb (r_quota o)); [apply effect_quiet; easy|].
    cbn [clear_queue]. intros H; apply res1_inv in H as [-> ->].
    apply (effect_plain _ _ _ _ [_; _]); try easy. intros; apply drop_put_other; auto.
  - unfold step_recv_window_update. destruct (sid =? 0); [discriminate|].
    destruct (iget st sid) as [[k r]|] eqn:Ei; [|destruct (not_idle st sid); apply effect_quiet; easy].
    destruct (_ && _); [apply effect_quiet; easy|].
    destruct (w_overflow o); [|apply effect_quiet; easy].
    (* Send::recv_stream_window_update has reset the stream already: what it queued counts *)
    pose proof (send_reset_core_outs sid FLOW_CONTROL_ERROR Library r) as Hso.
    destruct (send_reset_core sid FLOW_CONTROL_ERROR Library r) as [r1 o1]. cbn [snd] in Hso.
    apply (effect_settle _ _ _ r _ (r1, o1, _) _ _ (app o1) _ _ _ (iget_kget _ _ _ _ Ei)).
    subst o1. destruct (is_reset (s_state r) || closed_full r) eqn:E; repeat split; try discriminate; auto.
    intros _ _ _ _ _. right. apply spent_self; exact E.
  - unfold step_recv_push_promise. destruct (sid =? 0); [discriminate|].
    destruct (iget st sid) as [[k r]|]; [|apply effect_quiet; easy].
    destruct (_ || _); [apply effect_quiet; easy|]. destruct (c_recv_max st <? sid); [apply effect_quiet; easy|].
    pose proof (recv_open_id_slab st promised true (p_can_open o)) as Ho.
    destruct (is_local_error _).
    { destruct (negb _); [apply effect_quiet; easy|].
      destruct (recv_open_id st promised true (p_can_open o)) as [e|st1|st1|]; try discriminate;
        apply effect_quiet; easy. }
    destruct (ensure_recv_open _) as [|[|]| | | |]; try (apply effect_quiet; easy).
    destruct (negb _); [apply effect_quiet; easy|].
    destruct (recv_open_id st promised true (p_can_open o)) as [e|st1|st1|]; try discriminate;
      try (apply effect_quiet; easy).
    destruct (kget st1 nk); [discriminate|]. cbn [new_rec s_state reserve_remote].
    assert (H1 : forall c k0, k0 <> nk -> same_or_failed st (insert st1 nk c) k0).
    { intros c k0 Hne. left. rewrite kget_insert_other by exact Hne. unfold kget. rewrite Ho. reflexivity. }
    rewrite reset_on_err_eq. unfold lib_reset.
    destruct (p_valid o); [|destruct (p_quota o)]; intros H; apply res1_inv in H as [-> ->];
      apply (effect_plain _ _ _ _ (_ :: _)); try easy; try apply H1.
    intros _ _. split; [|left; reflexivity]. eexists. split; [apply kget_insert_same|].
    rewrite state_enqueue_reset_expiration. apply send_reset_core_reset.
  - apply effect_quiet; easy.
Qed.

(* what the tests of the step functions come to where the RFC's verdict is a connection error *)
Lemma conn_error_tests ro sid r t :
  wf_shape ro sid r = true ->
  receiver_must_for (is_local_init ro sid) (fst (pview ro r)) (snd (pview ro r)) t = conn_error ->
  lenient ro r t = false ->
  is_local_error (s_state r) = false /\
  match t with
  | HEADERS => s_popen r = true
  | DATA => is_recv_streaming (s_state r) = false
  | RST_STREAM | WINDOW_UPDATE => s_popen r && negb (is_server ro) = true
  | PUSH_PROMISE => negb (is_local_init ro sid) || s_popen r = false -> ensure_recv_open (s_state r) = RBool false
  | PRIORITY => False
  end.
Proof.
  destruct r as [i s po pu rx q fl]. unfold wf_shape, pview, lenient. cbn [s_state s_popen s_ppush].
  (* the two flags, the role, the parity and the state decide every term of the statement; wf_shape is false for the
     shapes that do not occur *)
  destruct pu, po, (is_server ro), (is_local_init ro sid); d_state s; cbn; try discriminate;
    try (destruct (error_is_local e); cbn); intros _.
  (* then by frame type: the verdict is not conn_error, or `lenient` holds, or the tests evaluate as stated *)
  all: destruct t; cbn; try discriminate; intuition discriminate.
Qed.

Theorem recv_conn_error_required st l sid t k r st' outs :
  recv_frame l = Some (sid, t) -> iget st sid = Some (k, r) -> c_recv_max st <? sid = false ->
  wf_shape (c_role st) sid r = true ->
  receiver_must_for (is_local_init (c_role st) sid) (fst (pview (c_role st) r)) (snd (pview (c_role st) r)) t = conn_error ->
  lenient (c_role st) r t = false ->
  step st l = Ok st' outs ->
  is_conn_error (result_of outs) = true /\ has_app outs = false /\ st' = st.
Proof.
  intros Hl Hi Hmax Hwf Hv Hlen Hs. destruct (conn_error_tests _ _ _ _ Hwf Hv Hlen) as [Hle Ht].
  destruct l; try discriminate Hl; inversion Hl; subst; clear Hl; cbn [step] in Hs.
  - unfold step_recv_headers, recv_headers_on in Hs. rewrite Hmax, Hi, Ht in Hs.
    destruct (sid =? 0); [discriminate|]. apply res1_inv in Hs as [-> ->]. auto.
  - unfold step_recv_data, recv_data_core in Hs. rewrite Hi, Hle, Ht in Hs.
    cbn [negb andb reset_on_recv_stream_err conn_proto library_go_away] in Hs.
    destruct (sid =? 0); [discriminate|]. apply res1_inv in Hs as [-> ->].
    rewrite (put_same st k r) by (eapply iget_kget; eauto). auto.
  - unfold step_recv_reset in Hs. rewrite Hmax, Hi, Ht in Hs. destruct (sid =? 0); apply res1_inv in Hs as [-> ->]; auto.
  - unfold step_recv_window_update in Hs. rewrite Hi, Ht in Hs.
    destruct (sid =? 0); [discriminate|]. apply res1_inv in Hs as [-> ->]; auto.
  - unfold step_recv_push_promise in Hs. rewrite Hi, Hmax, Hle in Hs. destruct (sid =? 0); [discriminate|].
    destruct (negb _ || _); [|rewrite (Ht eq_refl) in Hs]; apply res1_inv in Hs as [-> ->]; auto.
  - destruct Ht.
Qed.

(* a frame on an identifier that was never used *)
Theorem recv_idle_conn_error st l sid t st' outs :
  recv_frame l = Some (sid, t) -> iget st sid = None -> not_idle st sid = false ->
  c_recv_max st <? sid = false -> t <> PRIORITY ->
  (t = HEADERS -> is_local_init (c_role st) sid = true) ->
  step st l = Ok st' outs ->
  is_conn_error (result_of outs) = true /\ has_app outs = false /\ st' = st.
Proof.
  intros Hl Hi Hidle Hmax Hp Hh Hs.
  assert (Hf : may_have_forgotten st sid = false).
  { unfold may_have_forgotten. destruct (sid =? 0); [reflexivity|exact Hidle]. }
  destruct l; try discriminate Hl; inversion Hl; subst; clear Hl; cbn [step] in Hs.
  - unfold step_recv_headers, recv_open_id in Hs. rewrite Hmax, Hi, Hf, andb_false_r in Hs.
    destruct (sid =? 0); [discriminate|]. destruct (c_refused st); [discriminate|].
    specialize (Hh eq_refl). unfold is_local_init in Hh. destruct (is_server (c_role st)); cbn [negb orb] in Hs.
    + pose proof (one_parity sid) as Hc. destruct (is_server_init sid); [|discriminate Hh].
      rewrite andb_true_r in Hc. rewrite Hc in Hs. apply res1_inv in Hs as [-> ->]. auto.
    + apply res1_inv in Hs as [-> ->]. auto.
  - unfold step_recv_data in Hs. rewrite Hi, Hmax, Hf in Hs. destruct (sid =? 0); [discriminate|].
    apply res1_inv in Hs as [-> ->]. auto.
  - unfold step_recv_reset in Hs. rewrite Hi, Hmax, Hidle in Hs. destruct (sid =? 0); apply res1_inv in Hs as [-> ->]; auto.
  - unfold step_recv_window_update in Hs. rewrite Hi, Hidle in Hs.
    destruct (sid =? 0); [discriminate|]. apply res1_inv in Hs as [-> ->]; auto.
  - unfold step_recv_push_promise in Hs. rewrite Hi in Hs.
    destruct (sid =? 0); [discriminate|]. apply res1_inv in Hs as [-> ->]; auto.
  - congruence.
Qed.
