(* Proofs about Model/Handover.v: for ALL interleavings of the connection task's lock sections, its unlocked codec steps
   and other threads' operations, the hand-over of a partly written DATA frame is safe (no panic, no dangling key), the
   unwritten tail goes back to the FRONT of its owner's queue iff the owner's queue was not cleared meanwhile, never to
   another record, and the byte accounting is not disturbed by the hand-over. *)
From H2V Require Import Base.Tac Model.Handover.
Local Open Scope Z_scope.

Fixpoint sumz (l : list Z) : Z := match l with [] => 0 | x :: l' => x + sumz l' end.

Lemma sumz_app a b : sumz (a ++ b) = sumz a + sumz b.
Proof. induction a as [|x a IH]; cbn [sumz app]; lia. Qed.

Lemma sumz_nonneg l : Forall (fun x => 0 <= x) l -> 0 <= sumz l.
Proof. induction 1; cbn [sumz]; lia. Qed.

Lemma key_eqb_spec a b : reflect (a = b) (key_eqb a b).
Proof.
  destruct a as [a1 a2], b as [b1 b2]. unfold key_eqb; cbn [fst snd].
  destruct (N.eqb_spec a1 b1), (N.eqb_spec a2 b2); constructor; congruence.
Qed.

Lemma key_eqb_refl a : key_eqb a a = true.
Proof. destruct (key_eqb_spec a a); congruence. Qed.

Lemma key_eqb_neq a b : a <> b -> key_eqb a b = false.
Proof. destruct (key_eqb_spec a b); congruence. Qed.

Fixpoint uniq (l : list hstream) : Prop :=
  match l with [] => True | s :: l' => find_h (h_key s) l' = None /\ uniq l' end.

Lemma find_key k l s : find_h k l = Some s -> h_key s = k.
Proof.
  induction l as [|x l IH]; cbn [find_h]; [discriminate|].
  destruct (key_eqb_spec (h_key x) k); [congruence|exact IH].
Qed.

Lemma find_Forall (P : hstream -> Prop) k l s : Forall P l -> find_h k l = Some s -> P s.
Proof.
  induction 1 as [|x l Hx _ IH]; cbn [find_h]; [discriminate|].
  destruct (key_eqb (h_key x) k); [congruence|exact IH].
Qed.

Lemma find_upd s' l k :
  find_h k (upd_h s' l) = if key_eqb (h_key s') k then option_map (fun _ => s') (find_h k l) else find_h k l.
Proof.
  induction l as [|x l IH]; cbn [find_h upd_h]; [now destruct (key_eqb (h_key s') k)|].
  destruct (key_eqb_spec (h_key x) (h_key s')) as [E|E]; cbn [find_h].
  - rewrite E. now destruct (key_eqb (h_key s') k).
  - destruct (key_eqb_spec (h_key x) k) as [<-|E']; [|exact IH]. now rewrite key_eqb_neq by congruence.
Qed.

Lemma find_upd_same s' l k s : h_key s' = k -> find_h k l = Some s -> find_h k (upd_h s' l) = Some s'.
Proof. intros <- H. now rewrite find_upd, key_eqb_refl, H. Qed.

Lemma find_upd_other s' l k : k <> h_key s' -> find_h k (upd_h s' l) = find_h k l.
Proof. intros H. now rewrite find_upd, key_eqb_neq by congruence. Qed.

Lemma find_upd_live s' l k : find_h k l <> None -> find_h k (upd_h s' l) <> None.
Proof. rewrite find_upd. now destruct (key_eqb (h_key s') k), (find_h k l). Qed.

Lemma find_upd_absent s' l : find_h (h_key s') l = None -> upd_h s' l = l.
Proof.
  induction l as [|x l IH]; cbn [find_h upd_h]; [reflexivity|].
  destruct (key_eqb (h_key x) (h_key s')); [discriminate|]. intros H. now rewrite IH.
Qed.

Lemma uniq_upd s' l : uniq l -> uniq (upd_h s' l).
Proof.
  induction l as [|x l IH]; cbn [uniq upd_h]; [trivial|]. intros [Hn Hu].
  destruct (key_eqb_spec (h_key x) (h_key s')) as [E|E]; cbn [uniq].
  - rewrite <- E. auto.
  - rewrite find_upd_other by congruence. auto.
Qed.

Lemma find_del_other k k' l : k <> k' -> find_h k' (del_h k l) = find_h k' l.
Proof.
  intros Hk. induction l as [|x l IH]; cbn [find_h del_h]; [reflexivity|].
  destruct (key_eqb_spec (h_key x) k) as [E|E].
  - now rewrite key_eqb_neq by congruence.
  - cbn [find_h]. now rewrite IH.
Qed.

Lemma uniq_del k l : uniq l -> uniq (del_h k l).
Proof.
  induction l as [|x l IH]; cbn [uniq del_h]; [trivial|]. intros [Hn Hu].
  destruct (key_eqb_spec (h_key x) k); [exact Hu|]. cbn [uniq]. rewrite find_del_other by congruence. auto.
Qed.

Lemma Forall_del (P : hstream -> Prop) k l : Forall P l -> Forall P (del_h k l).
Proof.
  induction 1 as [|x l Hx Hl IH]; cbn [del_h]; [constructor|].
  destruct (key_eqb (h_key x) k); [assumption|constructor; auto].
Qed.

Lemma slot_free_find k l : slot_free (fst k) l = true -> find_h k l = None.
Proof.
  induction l as [|x l IH]; cbn [slot_free forallb find_h]; [reflexivity|].
  rewrite andb_true_iff, negb_true_iff. intros [H1 H2].
  unfold key_eqb. rewrite H1. cbn [andb]. apply IH. exact H2.
Qed.

Lemma Forall_other (P Q : hstream -> Prop) k l :
  (forall x, h_key x <> k -> P x -> Q x) -> find_h k l = None -> Forall P l -> Forall Q l.
Proof.
  intros Hpq Hn HP. induction HP as [|x l Hx Hl IH]; constructor; cbn [find_h] in Hn;
    destruct (key_eqb_spec (h_key x) k); try discriminate; auto.
Qed.

(* the replaced record gets Q directly; uniq: no record behind it has its key *)
Lemma Forall_upd (P Q : hstream -> Prop) s' l :
  (forall x, h_key x <> h_key s' -> P x -> Q x) -> uniq l -> Forall P l -> Q s' -> Forall Q (upd_h s' l).
Proof.
  intros Hpq Hu HP Hs. induction HP as [|x l Hx Hl IH]; cbn [upd_h]; [constructor|]. destruct Hu as [Hn Hu].
  destruct (key_eqb_spec (h_key x) (h_key s')) as [E|E]; constructor; auto.
  rewrite E in Hn. exact (Forall_other P Q _ l Hpq Hn Hl).
Qed.

(* in_flight_tail of Model/Handover.v on the two fields it reads, so that sok can be stated of a record before the state
   around it is built *)
Definition tailof (fl : inflight) (c : codec) (k : key) : Z :=
  match fl with FData k' => if key_eqb k k' then codec_tail c else 0 | _ => 0 end.

Lemma in_flight_tail_tailof st k : in_flight_tail st k = tailof (hs_fl st) (hs_codec st) k.
Proof. reflexivity. Qed.

(* per record: frame sizes are non-negative; every accepted byte is either charged (taken by pop_frame), still buffered, or
   was discarded by clear_queue; buffered_send_data = queued bytes + the tail that is with the codec on this record's behalf *)
Definition sok (fl : inflight) (c : codec) (s : hstream) : Prop :=
  Forall (fun x => 0 <= x) (h_queue s) /\
  h_sub s = h_chg s + h_buf s + h_drop s /\
  h_buf s = sumz (h_queue s) + tailof fl c (h_key s).

(* in_flight_data_frame and the codec agree; the ghost flag says Drop; a tail that will have to be re-queued has a live owner *)
Definition fok (st : hstate) : Prop :=
  match hs_fl st, hs_codec st with
  | FNothing, CEmpty => True
  | FData k, CNext k' rem tail => k' = k /\ 0 <= tail /\ 0 < rem /\ hs_cleared st = false /\
                                  (0 < tail -> find_h k (hs_streams st) <> None)
  | FData k, CLast k' tail => k' = k /\ 0 <= tail /\ hs_cleared st = false /\
                              (0 < tail -> find_h k (hs_streams st) <> None)
  | FDrop, CNext _ rem tail => 0 <= tail /\ 0 < rem /\ hs_cleared st = true
  | FDrop, CLast _ tail => 0 <= tail /\ hs_cleared st = true
  | _, _ => False
  end.

Definition Inv (st : hstate) : Prop :=
  uniq (hs_streams st) /\ Forall (sok (hs_fl st) (hs_codec st)) (hs_streams st) /\ fok st /\ 0 < hs_thr st.

(* take_last_data_frame would return None *)
Definition reclaimed (st : hstate) : Prop := match hs_codec st with CLast _ _ => False | _ => True end.

Lemma init_inv thr : 0 < thr -> Inv (init_state thr).
Proof. intros H. unfold Inv, init_state; cbn. repeat split; auto. Qed.

Lemma sok_same_tail fl c fl' c' s :
  tailof fl' c' (h_key s) = tailof fl c (h_key s) -> sok fl c s -> sok fl' c' s.
Proof. unfold sok. intros E (H1 & H2 & H3). rewrite E. auto. Qed.

(* fok looks at the records only to see that the owner of a tail is live *)
Lemma fok_streams st l :
  (forall k, hs_fl st = FData k -> 0 < codec_tail (hs_codec st) -> find_h k (hs_streams st) <> None -> find_h k l <> None) ->
  fok st -> fok (set_streams st l).
Proof.
  unfold fok; cbn [set_streams hs_fl hs_codec hs_cleared hs_streams].
  destruct (hs_fl st) as [|k|], (hs_codec st) as [|k' rem tail|k' tail]; cbn [codec_tail]; intuition eauto.
Qed.

Lemma tail_live st k : fok st -> find_h k (hs_streams st) = None -> tailof (hs_fl st) (hs_codec st) k = 0.
Proof.
  unfold fok, tailof. destruct (hs_fl st) as [|k'|]; try reflexivity.
  destruct (key_eqb_spec k k') as [<-|]; [|reflexivity].
  (* fok: 0 <= tail, and 0 < tail would make k live *)
  destruct (hs_codec st) as [|kc rem tail|kc tail]; cbn [codec_tail]; intuition lia.
Qed.

Lemma Inv_retag st fl' c' cl' :
  Inv st -> (forall k, tailof fl' c' k = tailof (hs_fl st) (hs_codec st) k) ->
  fok (set_flight st fl' c' cl') -> Inv (set_flight st fl' c' cl').
Proof.
  intros (Hu & Hs & _ & Ht) E Hf. unfold Inv; cbn [hs_streams hs_fl hs_codec hs_thr set_flight].
  repeat split; auto. revert Hs. apply Forall_impl. intros s. apply sok_same_tail, E.
Qed.

Lemma Inv_upd st s' fl' c' cl' :
  Inv st -> (forall k, k <> h_key s' -> tailof fl' c' k = tailof (hs_fl st) (hs_codec st) k) -> sok fl' c' s' ->
  fok (set_flight (set_streams st (upd_h s' (hs_streams st))) fl' c' cl') ->
  Inv (set_flight (set_streams st (upd_h s' (hs_streams st))) fl' c' cl').
Proof.
  intros (Hu & Hs & _ & Ht) E Hs' Hf. unfold Inv; cbn [hs_streams hs_fl hs_codec hs_thr set_flight set_streams].
  repeat split; auto using uniq_upd. revert Hu Hs Hs'. apply Forall_upd. intros x Hx. apply sok_same_tail, E, Hx.
Qed.

Lemma reclaim_inv st :
  Inv st -> match reclaim st with Ok st' _ => Inv st' /\ reclaimed st' | _ => False end.
Proof.
  intros HI. pose proof HI as (Hu & Hs & Hf & Ht). unfold reclaim, reclaimed, fok in *.
  destruct (hs_codec st) as [|k rem tail|k tail] eqn:Ec; [now rewrite Ec..|].
  destruct (hs_fl st) as [|k'|] eqn:Ef; [contradiction| |].
  - destruct Hf as (<- & Ht0 & Hcl & Hlive). rewrite key_eqb_refl. cbn [negb].
    destruct (0 <? tail) eqn:Etl.
    + destruct (find_h k (hs_streams st)) as [s|] eqn:Efind; [|apply Hlive; [lia|reflexivity]].
      destruct (find_Forall _ _ _ _ Hs Efind) as (Q1 & Q2 & Q3). apply find_key in Efind. subst k.
      cbn in Q3. rewrite key_eqb_refl in Q3.
      split; [|exact I]. apply Inv_upd; [exact HI| | |exact I].
      * intros k Hk. rewrite Ef, Ec. cbn. now rewrite key_eqb_neq.
      * repeat split; cbn; [constructor; [lia|exact Q1]|exact Q2|lia].
    + split; [|exact I]. apply Inv_retag; [exact HI| |exact I].
      intros k'. rewrite Ef, Ec. cbn. destruct (key_eqb k' k); lia.
  - split; [|exact I]. apply Inv_retag; [exact HI| |exact I]. intros k'. now rewrite Ef.
Qed.

Lemma clear_inv st k :
  Inv st -> match clear st k with
            | Ok st' _ => Inv st' /\ hs_codec st' = hs_codec st | Stuck _ => True | Panic _ => False end.
Proof.
  intros HI. pose proof HI as (Hu & Hs & Hf & Ht). unfold clear.
  destruct (find_h k (hs_streams st)) as [s|] eqn:Efind; [|trivial].
  destruct (find_Forall _ _ _ _ Hs Efind) as (Q1 & Q2 & Q3). apply find_key in Efind. subst k.
  split; [|reflexivity].
  set (s' := mkH _ _ _ _ _ _). set (fl' := match hs_fl st with FData k' => _ | f => f end).
  set (cl' := match codec_key _ with Some _ => _ | None => _ end).
  apply Inv_upd; [exact HI| | |].
  - intros k Hk. unfold tailof, fl'. destruct (hs_fl st) as [|k'|]; try reflexivity.
    destruct (key_eqb_spec (h_key s) k') as [<-|]; [now rewrite key_eqb_neq|reflexivity].
  - repeat split; cbn; [constructor|lia|].
    unfold fl'. destruct (hs_fl st) as [|k'|]; try reflexivity. now destruct (key_eqb (h_key s) k') eqn:E; cbn; rewrite ?E.
  - apply (fok_streams st (upd_h s' (hs_streams st))) in Hf; [|intros; now apply find_upd_live].
    (* under fok the codec's key is the in-flight key: Drop and the mark are set together *)
    unfold fok, fl', cl' in *; cbn [hs_fl hs_codec hs_cleared hs_streams set_flight set_streams] in *.
    destruct (hs_fl st) as [|k'|], (hs_codec st) as [|kc rem tail|kc tail]; cbn [codec_key]; try contradiction; trivial;
      try destruct Hf as (<- & Hf); destruct (key_eqb (h_key s) kc); intuition.
Qed.

(* a record whose tail is with the codec cannot be released: `is_closed()` requires buffered_send_data == 0 *)
Lemma owner_not_removable st k :
  Inv st -> hs_fl st = FData k -> 0 < codec_tail (hs_codec st) ->
  match remove st k with Ok _ _ => False | _ => True end.
Proof.
  intros (Hu & Hs & Hf & Ht) Ef Hp. unfold remove.
  destruct (find_h k (hs_streams st)) as [s|] eqn:Efind; [|trivial].
  destruct (find_Forall _ _ _ _ Hs Efind) as (_ & _ & Q3). apply find_key in Efind.
  unfold tailof in Q3. rewrite Ef, Efind, key_eqb_refl in Q3.
  destruct (h_queue s); [|trivial]. destruct (h_buf s =? 0) eqn:Eb; [|trivial]. cbn [sumz] in Q3. lia.
Qed.

Lemma remove_inv st k :
  Inv st -> match remove st k with
            | Ok st' _ => Inv st' /\ hs_codec st' = hs_codec st
            | Stuck _ => True | Panic _ => False end.
Proof.
  intros HI. pose proof (owner_not_removable st k HI) as Hown. destruct HI as (Hu & Hs & Hf & Ht). unfold remove in *.
  destruct (find_h k (hs_streams st)) as [s|]; [|trivial].
  destruct (h_queue s); [|trivial]. destruct (h_buf s =? 0); [|trivial].
  split; [|reflexivity]. split; [now apply uniq_del|]. split; [now apply Forall_del|]. split; [|exact Ht].
  apply fok_streams; [|exact Hf]. intros k' Ef Hp Hl. rewrite find_del_other; [exact Hl|].
  intros ->. exact (Hown Ef Hp).
Qed.

Lemma capacity_reclaimed st :
  Inv st -> reclaimed st -> has_capacity st = true -> hs_fl st = FNothing /\ hs_codec st = CEmpty.
Proof.
  intros (_ & _ & Hf & _) Hr Hc. unfold has_capacity in Hc. apply andb_true_iff in Hc. destruct Hc as [_ Hc].
  unfold reclaimed in Hr. unfold fok in Hf.
  destruct (hs_codec st); try discriminate; try contradiction.
  destruct (hs_fl st); try contradiction; auto.
Qed.

Lemma do_item_inv st it :
  Inv st -> reclaimed st ->
  match do_item st it with Ok st' _ => Inv st' /\ reclaimed st' | Stuck _ => True | Panic _ => False end.
Proof.
  intros HI Hr. destruct it as [k sz len|cont|k|k]; cbn [do_item].
  - destruct (has_capacity st) eqn:Ecap; cbn [negb]; [|trivial].
    destruct (capacity_reclaimed st HI Hr Ecap) as [Ef Ec]. pose proof HI as (Hu & Hs & Hf & Ht). rewrite Ef, Ec in Hs. rewrite Ef.
    destruct (find_h k (hs_streams st)) as [s|] eqn:Efind; [|trivial].
    destruct (find_Forall _ _ _ _ Hs Efind) as (Q1 & Q2 & Q3). apply find_key in Efind as Hks. subst k.
    destruct (h_queue s) as [|f q]; [trivial|].
    destruct (f =? sz) eqn:Efs; cbn [negb]; [|trivial]. apply Z.eqb_eq in Efs. subst f.
    destruct ((len <? 0) || (sz <? len)) eqn:Elen; [trivial|].
    apply Forall_cons_iff in Q1. destruct Q1 as [Hsz Hq]. pose proof (sumz_nonneg q Hq). cbn [sumz tailof] in Q3.
    destruct (h_buf s <? len) eqn:Ebuf; [lia|].
    set (s' := mkH _ _ _ _ _ _). set (c := if hs_thr st <=? len then CNext _ _ _ else _). set (st1 := set_flight _ _ c false).
    enough (HI1 : Inv st1) by (apply reclaim_inv in HI1; destruct (reclaim st1); cbn [add_outs]; tauto).
    apply Inv_upd; [exact HI| | |].
    + intros k Hk. rewrite Ef. cbn. now rewrite key_eqb_neq.
    + assert (codec_tail c = sz - len) by (unfold c; now destruct (hs_thr st <=? len)).
      repeat split; cbn; [exact Hq|lia|]. rewrite key_eqb_refl. lia.
    + assert (Hl : find_h (h_key s) (upd_h s' (hs_streams st)) <> None) by (apply find_upd_live; congruence).
      unfold fok, c; cbn [hs_fl hs_codec hs_cleared hs_streams set_flight set_streams].
      destruct (hs_thr st <=? len) eqn:Ethr; repeat split; auto; lia.
  - destruct (has_capacity st) eqn:Ecap; cbn [negb]; [|trivial].
    destruct (capacity_reclaimed st HI Hr Ecap) as [Ef Ec]. rewrite Ef.
    destruct HI as (Hu & Hs & Hf & Ht). unfold Inv, reclaimed, fok in *; cbn. rewrite Ef, Ec in *. auto.
  - pose proof (clear_inv st k HI) as H. destruct (clear st k); auto.
    destruct H as [H1 H2]. unfold reclaimed. now rewrite H2.
  - pose proof (remove_inv st k HI) as H. destruct (remove st k); auto.
    destruct H as [H1 H2]. unfold reclaimed. now rewrite H2.
Qed.

Lemma do_items_inv its : forall st outs,
  Inv st -> reclaimed st ->
  match do_items st outs its with Ok st' _ => Inv st' /\ reclaimed st' | Stuck _ => True | Panic _ => False end.
Proof.
  induction its as [|it its IH]; intros st outs HI Hr; cbn [do_items]; [auto|].
  pose proof (do_item_inv st it HI Hr) as H.
  destruct (do_item st it) as [st1 o1|n|n]; auto. destruct H as [H1 H2]. now apply IH.
Qed.

Theorem step_inv st l :
  Inv st -> match step st l with Ok st' _ => Inv st' | Stuck _ => True | Panic _ => False end.
Proof.
  intros HI. destruct l as [k|k|k sz|k|its| |n|]; cbn [step].
  - destruct (slot_free (fst k) (hs_streams st)) eqn:E1; [|trivial]. apply slot_free_find in E1.
    destruct HI as (Hu & Hs & Hf & Ht). unfold Inv; cbn [hs_streams hs_fl hs_codec hs_thr set_streams uniq h_key].
    split; [auto|]. split; [|split; [|exact Ht]].
    + constructor; [|exact Hs]. split; [constructor|]. split; [reflexivity|]. cbn [h_queue h_buf h_key sumz].
      now rewrite tail_live.
    + apply fok_streams; [|exact Hf]. intros k' _ _ Hl. cbn [find_h h_key]. now destruct (key_eqb k k').
  - pose proof (remove_inv st k HI) as H. destruct (remove st k); tauto.
  - destruct (find_h k (hs_streams st)) as [s|] eqn:Efind; [|trivial].
    destruct (sz <? 0) eqn:Esz; [trivial|].
    pose proof HI as (Hu & Hs & Hf & Ht). destruct (find_Forall _ _ _ _ Hs Efind) as (Q1 & Q2 & Q3).
    (* set_streams alone is set_flight with the values st has, up to conversion: hence refine and exact *)
    set (s' := mkH _ _ _ _ _ _). refine (Inv_upd st s' (hs_fl st) (hs_codec st) (hs_cleared st) HI _ _ _); [reflexivity| |].
    + repeat split; cbn [h_queue h_buf h_sub h_chg h_drop h_key s']; rewrite ?sumz_app; cbn [sumz]; [|lia|lia].
      apply Forall_app. split; [exact Q1|]. constructor; [lia|constructor].
    + exact (fok_streams st _ (fun k' _ _ => find_upd_live s' _ k') Hf).
  - pose proof (clear_inv st k HI) as H. destruct (clear st k); tauto.
  - pose proof (reclaim_inv st HI) as H. unfold bind.
    destruct (reclaim st) as [st1 o1|n|n]; [|contradiction|contradiction].
    destruct H as [H1 H2]. pose proof (do_items_inv its st1 o1 H1 H2) as H3.
    destruct (do_items st1 o1 its); tauto.
  - pose proof (reclaim_inv st HI) as H. destruct (reclaim st); tauto.
  - pose proof HI as (_ & _ & Hf & _). unfold fok in Hf.
    destruct (hs_codec st) as [|k rem tail|k tail] eqn:Ec; [trivial| |trivial].
    destruct ((n <=? 0) || (rem <? n)) eqn:En; [trivial|].
    (* the codec writes payload bytes of the Take: `rem` shrinks, the tail beyond the Take stays *)
    destruct (rem =? n) eqn:Ern; (apply Inv_retag; [exact HI|intros k'; now rewrite Ec|]);
      unfold fok; cbn [hs_fl hs_codec hs_cleared hs_streams set_flight]; destruct (hs_fl st); intuition lia.
  - destruct (hs_cont st); [|trivial]. exact HI.
Qed.

Definition run_ok (r : hstate * list (list out) + (N * outcome)) : Prop :=
  match r with
  | inl (st, _) => Inv st
  | inr (_, Stuck _) => True
  | inr (_, _) => False
  end.

Theorem run_inv ls : forall st, Inv st -> run_ok (run st ls).
Proof.
  induction ls as [|l ls IH]; intros st HI; cbn [run run_ok]; [exact HI|].
  pose proof (step_inv st l HI) as H.
  destruct (step st l) as [st1 o1|n|n]; [|exact I|contradiction].
  specialize (IH st1 H). destruct (run st1 ls) as [[st2 os]|[k r]]; cbn [run_ok] in *; [exact IH|].
  destruct r; auto.
Qed.

Definition same_but_queue (s s' : hstream) : Prop :=
  h_key s' = h_key s /\ h_buf s' = h_buf s /\ h_sub s' = h_sub s /\ h_chg s' = h_chg s /\ h_drop s' = h_drop s.

(* With a completely written frame in the codec (last_data_frame = Some), reclaim re-queues the unwritten tail iff the ghost
   flag says the owner's queue was not cleared since staging and there is a tail; then the tail is the new HEAD of the
   owner's queue, the owner is the live record with exactly the staged key (slot and stream id), nothing else changes.
   Otherwise nothing is re-queued anywhere. *)
Theorem reclaim_spec st k tail :
  Inv st -> hs_codec st = CLast k tail ->
  exists st', hs_fl st' = FNothing /\ hs_codec st' = CEmpty /\
  ((hs_cleared st = false /\ 0 < tail /\ reclaim st = Ok st' [ORequeue k tail] /\
    exists s s', find_h k (hs_streams st) = Some s /\ find_h k (hs_streams st') = Some s' /\
                 h_queue s' = tail :: h_queue s /\ same_but_queue s s' /\
                 forall k', k' <> k -> find_h k' (hs_streams st') = find_h k' (hs_streams st))
   \/ (hs_cleared st = true /\ reclaim st = Ok st' [ODiscard k tail] /\ hs_streams st' = hs_streams st)
   \/ (hs_cleared st = false /\ tail = 0 /\ reclaim st = Ok st' [ODone k] /\ hs_streams st' = hs_streams st)).
Proof.
  intros (Hu & Hs & Hf & Ht) Ec. unfold reclaim, fok in *. rewrite Ec in *.
  destruct (hs_fl st) as [|k'|] eqn:Ef; [contradiction| |].
  - destruct Hf as (<- & Ht0 & Hcl & Hlive). rewrite key_eqb_refl. cbn [negb].
    destruct (0 <? tail) eqn:Etl.
    + destruct (find_h k (hs_streams st)) as [s|] eqn:Efind; [|exfalso; apply Hlive; [lia|reflexivity]].
      apply find_key in Efind as Hks. subst k.
      eexists (set_flight (set_streams st (upd_h _ _)) FNothing CEmpty false).
      split; [reflexivity|]. split; [reflexivity|]. left.
      split; [exact Hcl|]. split; [lia|]. split; [reflexivity|].
      exists s. eexists. split; [reflexivity|]. cbn [hs_streams set_flight set_streams].
      split; [now apply (find_upd_same _ _ _ s)|].
      split; [reflexivity|]. split; [unfold same_but_queue; cbn; auto|].
      intros k' Hne. now apply find_upd_other.
    + exists (set_flight st FNothing CEmpty false).
      split; [reflexivity|]. split; [reflexivity|]. right; right. repeat split; auto. lia.
  - exists (set_flight st FNothing CEmpty false).
    split; [reflexivity|]. split; [reflexivity|]. right; left. tauto.
Qed.

(* the ghost flag is kept by everything other threads can do besides clear_queue, and by the codec's own progress *)
Lemma other_labels_keep_cleared st l st' o :
  match l with HNew _ | HRemove _ | HSendData _ _ | HWrite _ | HFlushCont => True | _ => False end ->
  step st l = Ok st' o -> hs_cleared st' = hs_cleared st.
Proof.
  destruct l as [k|k|k sz|k|its| |n|]; try contradiction; intros _; cbn [step].
  - destruct (slot_free (fst k) (hs_streams st)); [|discriminate].
    intros H; inversion H; reflexivity.
  - unfold remove. destruct (find_h k (hs_streams st)) as [s|]; [|discriminate].
    destruct (h_queue s); [|discriminate]. destruct (h_buf s =? 0); [|discriminate]. intros H; inversion H; reflexivity.
  - destruct (find_h k (hs_streams st)); [|discriminate]. destruct (sz <? 0); [discriminate|].
    intros H; inversion H; reflexivity.
  - destruct (hs_codec st) as [|k rem tail|]; try discriminate.
    destruct ((n <=? 0) || (rem <? n)); [discriminate|]. destruct (rem =? n); intros H; inversion H; reflexivity.
  - destruct (hs_cont st); [|discriminate]. intros H; inversion H; reflexivity.
Qed.

Lemma reclaim_Ok st st' o :
  reclaim st = Ok st' o ->
  st' = st \/
  exists l, st' = set_flight (set_streams st l) FNothing CEmpty false /\
    ((l = hs_streams st /\ forall k, in_flight_tail st k <= 0) \/
     exists s tail, find_h (h_key s) (hs_streams st) = Some s /\ 0 < tail /\
       (forall k, in_flight_tail st k = if key_eqb k (h_key s) then tail else 0) /\
       l = upd_h (mkH (h_key s) (tail :: h_queue s) (h_buf s) (h_sub s) (h_chg s) (h_drop s)) (hs_streams st)).
Proof.
  unfold reclaim, in_flight_tail.
  destruct (hs_codec st) as [|kc rem tail|kc tail]; try (intros H; inversion H; now left).
  destruct (hs_fl st) as [|k'|]; [discriminate| |].
  - destruct (key_eqb_spec k' kc) as [->|]; [|discriminate]. cbn [negb codec_tail]. destruct (0 <? tail) eqn:Etl.
    + destruct (find_h kc (hs_streams st)) as [s|] eqn:Efind; [|discriminate].
      apply find_key in Efind as Hks. subst kc.
      intros H; inversion H. right. eexists. split; [reflexivity|]. right. exists s, tail. repeat split; auto. lia.
    + intros H; inversion H. right. exists (hs_streams st). split; [reflexivity|]. left.
      split; [reflexivity|]. intros k. destruct (key_eqb k kc); lia.
  - intros H; inversion H. right. exists (hs_streams st). split; [reflexivity|]. left. split; [reflexivity|]. intros k. lia.
Qed.

(* a chained frame that stays with the codec when buffer_pending returns was staged with the flag reset *)
Lemma stage_resets_flag st k sz len st' o :
  do_item st (IData k sz len) = Ok st' o -> hs_cleared st' = false.
Proof.
  cbn [do_item]. destruct (negb (has_capacity st)); [discriminate|].
  destruct (find_h k (hs_streams st)) as [s|]; [|discriminate].
  destruct (h_queue s) as [|f q]; [discriminate|].
  destruct (negb (f =? sz)); [discriminate|]. destruct ((len <? 0) || (sz <? len)); [discriminate|].
  destruct (h_buf s <? len); [discriminate|]. destruct (hs_fl st); try discriminate.
  set (st1 := set_flight _ _ _ _). destruct (reclaim st1) as [st2 o2|n|n] eqn:R; cbn [add_outs]; try discriminate.
  intros [= <- _]. now destruct (reclaim_Ok _ _ _ R) as [->|(l & -> & _)].
Qed.

(* reclaim keeps every record and changes it only by putting the tail that was counted for it at the head of its queue *)
Theorem reclaim_keeps_records st st' o k s :
  reclaim st = Ok st' o -> find_h k (hs_streams st) = Some s ->
  exists s', find_h k (hs_streams st') = Some s' /\ same_but_queue s s' /\ abs_queue st' s' = abs_queue st s.
Proof.
  intros H A. apply find_key in A as Hk. unfold abs_queue, same_but_queue.
  destruct (reclaim_Ok _ _ _ H) as [->|(l & -> & [[-> Hz]|(s0 & tail & F & Hp & Ht & ->)])];
    cbn [hs_streams set_flight set_streams in_flight_tail hs_fl app]; [now exists s| |].
  - exists s. split; [exact A|]. split; [easy|]. specialize (Hz (h_key s)).
    now destruct (0 <? in_flight_tail st (h_key s)) eqn:E; [lia|].
  - rewrite find_upd. cbn [h_key]. rewrite Ht, Hk. destruct (key_eqb_spec k (h_key s0)) as [->|Hne].
    + rewrite key_eqb_refl, F. replace s0 with s by congruence. eexists. split; [reflexivity|].
      split; [cbn; auto|]. cbn [h_queue]. now replace (0 <? tail) with true by lia.
    + rewrite key_eqb_neq by congruence. now exists s.
Qed.

(* staging (the DATA arm of pop_frame, Encoder::buffer and the reclaim right after it, as one piece of a lock section):
   exactly `len` bytes are charged to the owner and leave its buffered count; in the flow-control model's view of the
   queue the head `sz` is replaced by the remainder `sz - len` (nothing if the frame was taken whole) -- literally the
   `q'` of Model/SendFlow.v's LPopData -- whether the frame is still with the codec or already reclaimed *)
Theorem stage_spec st k sz len st' o s :
  Inv st -> reclaimed st -> do_item st (IData k sz len) = Ok st' o -> find_h k (hs_streams st) = Some s ->
  exists q s', h_queue s = sz :: q /\ find_h k (hs_streams st') = Some s' /\
    h_chg s' = h_chg s + len /\ h_buf s' = h_buf s - len /\ h_sub s' = h_sub s /\ h_drop s' = h_drop s /\
    abs_queue st' s' = (if len <? sz then [sz - len] else []) ++ q /\
    forall k', k' <> k -> find_h k' (hs_streams st') = find_h k' (hs_streams st).
Proof.
  intros _ _ Hdo Efind. cbn [do_item] in Hdo.
  destruct (negb (has_capacity st)); [discriminate|].
  rewrite Efind in Hdo. apply find_key in Efind as Hks. subst k.
  destruct (h_queue s) as [|f q]; [discriminate|].
  destruct (f =? sz) eqn:Efs; cbn [negb] in Hdo; [|discriminate]. apply Z.eqb_eq in Efs. subst f.
  destruct ((len <? 0) || (sz <? len)) eqn:Elen; [discriminate|].
  destruct (h_buf s <? len); [discriminate|]. destruct (hs_fl st); try discriminate.
  set (s1 := mkH _ _ _ _ _ _) in Hdo.
  assert (Hf1 : find_h (h_key s) (upd_h s1 (hs_streams st)) = Some s1) by now apply (find_upd_same _ _ _ s).
  assert (Hoth1 : forall k', k' <> h_key s -> find_h k' (upd_h s1 (hs_streams st)) = find_h k' (hs_streams st))
    by (intros k'; apply (find_upd_other s1)).
  exists q. unfold reclaim in Hdo. cbn [hs_codec hs_fl set_flight set_streams] in Hdo.
  unfold abs_queue, in_flight_tail.
  destruct (hs_thr st <=? len); cbn [hs_codec hs_fl hs_streams set_flight set_streams add_outs app] in Hdo.
  - (* chained: the frame stays with the codec *)
    inversion Hdo. exists s1. cbn [hs_streams hs_fl hs_codec set_flight set_streams codec_tail h_key s1 h_queue].
    rewrite key_eqb_refl. repeat split; auto. destruct (len <? sz) eqn:E1, (0 <? sz - len) eqn:E2; (reflexivity || lia).
  - rewrite key_eqb_refl in Hdo. cbn [negb] in Hdo. destruct (0 <? sz - len) eqn:Etl.
    + (* the rest of the frame is re-queued at once *)
      rewrite Hf1 in Hdo. set (s2 := mkH _ _ _ _ _ _) in Hdo. inversion Hdo. exists s2.
      cbn [hs_streams hs_fl set_flight set_streams app h_queue s2 s1]. split; [reflexivity|].
      split; [now apply (find_upd_same _ _ _ s1)|]. replace (len <? sz) with true by lia. repeat split; auto.
      intros k' Hne. rewrite <- Hoth1 by exact Hne. now apply (find_upd_other s2).
    + inversion Hdo. exists s1. cbn [hs_streams hs_fl set_flight set_streams app h_queue s1].
      replace (len <? sz) with false by lia. repeat split; auto.
Qed.

(* clear_queue discards the whole of buffered_send_data, tail with the codec included, exactly once *)
Theorem clear_spec st k st' o s :
  clear st k = Ok st' o -> find_h k (hs_streams st) = Some s ->
  exists s', find_h k (hs_streams st') = Some s' /\ h_queue s' = [] /\ h_buf s' = 0 /\
             h_drop s' = h_drop s + h_buf s /\ h_chg s' = h_chg s /\ h_sub s' = h_sub s /\ abs_queue st' s' = [].
Proof.
  unfold clear. intros H Efind. rewrite Efind in H. inversion H; subst; clear H.
  apply find_key in Efind as Hks. subst k. cbn [hs_streams set_flight set_streams].
  eexists. split; [now apply (find_upd_same _ _ _ s)|].
  cbn [h_queue h_buf h_drop h_chg h_sub]. repeat split; auto.
  unfold abs_queue, in_flight_tail; cbn [hs_fl hs_codec set_flight set_streams h_key h_queue].
  destruct (hs_fl st) as [|k'|]; try reflexivity.
  destruct (key_eqb (h_key s) k') eqn:E; [reflexivity|]. now rewrite E.
Qed.

Definition tolerant (m : pmode) : bool := match m with MUnwrap => false | _ => true end.

Lemma unwind_tolerant ds1 ds poisoned : forallb tolerant ds1 = true -> unwind (ds1 ++ ds) poisoned = unwind ds poisoned.
Proof.
  induction ds1 as [|m ds1 IH]; cbn [forallb unwind app]; [reflexivity|].
  rewrite andb_true_iff. intros [Hm Hd]. rewrite <- (IH Hd). now destruct m, poisoned.
Qed.

Theorem unwind_never_aborts ds poisoned : forallb tolerant ds = true -> unwind ds poisoned <> RAborts.
Proof. intros H. rewrite <- (app_nil_r ds), unwind_tolerant by exact H. discriminate. Qed.

Theorem healthy_lock_runs m p : acquire m false p = RRuns.
Proof. reflexivity. Qed.

Definition kA : key := (0%N, 1%N).
Definition kB : key := (0%N, 3%N).    (* a later stream in the same slab slot *)

(* stream 1 queues 5000 bytes; the connection stages 2000 of them as a chained frame; while the codec writes, another
   thread resets stream 1, the record is released, stream 3 re-uses slot 0 and queues data; the codec finishes; the
   relocked section drops the tail (3000 bytes) instead of pushing it onto stream 3 *)
Definition demo_reset : list label :=
  [HNew kA; HSendData kA 5000; HBufferPending [IData kA 5000 2000]; HWrite 700; HClear kA; HRemove kA; HNew kB;
   HSendData kB 40; HWrite 1300; HReclaimWritten].

Example demo_reset_run :
  match run (init_state 1024) demo_reset with
  | inl (st, outs) => nth 9 outs [] = [ODiscard kA 3000] /\ nth 2 outs [] = [OStaged kA 2000 true] /\
                      hs_fl st = FNothing /\ map h_queue (hs_streams st) = [[40]]
  | inr _ => False
  end.
Proof. vm_compute. repeat split. Qed.

(* same without the reset: the tail is back at the front, ahead of data queued meanwhile by another thread *)
Definition demo_requeue : list label :=
  [HNew kA; HSendData kA 5000; HBufferPending [IData kA 5000 2000]; HWrite 700; HSendData kA 77; HWrite 1300;
   HBufferPending []].

Example demo_requeue_run :
  match run (init_state 1024) demo_requeue with
  | inl (st, outs) => nth 6 outs [] = [ORequeue kA 3000] /\ map h_queue (hs_streams st) = [[3000; 77]] /\
                      map h_buf (hs_streams st) = [3077] /\ map h_chg (hs_streams st) = [2000]
  | inr _ => False
  end.
Proof. vm_compute. repeat split. Qed.

Definition demo_last : list label := [HNew kA; HSendData kA 5000; HBufferPending [IData kA 5000 2000]; HWrite 2000].

Example inv_satisfiable : exists st, Inv st /\ hs_codec st = CLast kA 3000 /\ hs_cleared st = false.
Proof.
  pose proof (run_inv demo_last _ (init_inv 1024 ltac:(lia))) as H.
  destruct (run (init_state 1024) demo_last) as [[st os]|[k r]] eqn:E.
  - exists st. split; [exact H|]. vm_compute in E. inversion E; subst. split; reflexivity.
  - vm_compute in E. discriminate.
Qed.

Example unwind_demo : unwind [MPanicUnlessPanicking; MSkip; MPanicUnlessPanicking] true = RSkipped /\
                      unwind [MPanicUnlessPanicking; MUnwrap] true = RAborts.
Proof. split; reflexivity. Qed.
