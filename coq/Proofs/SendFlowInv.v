(* The invariant of the send-flow model -- conservation of assigned capacity, per-stream bounds --
   and, for each function of the model, what it does to the invariant and to what the ledger reads of
   the state (SendFlowView.v): absence of panics, preservation by every label. *)
From H2V Require Import Base.Tac Model.SendFlow Proofs.SendFlowLists Proofs.SendFlowView.
Local Open Scope Z_scope.

Ltac simp_s :=
  cbn [put set_strs set_cavail set_cwin set_cinit set_avail set_win set_req set_bufq
       set_capinc set_parked set_dead
       s_id s_win s_avail s_req s_buf s_frames s_capinc s_parked s_dead
       c_win c_avail c_maxbuf c_init c_strs] in *.

Definition s_ok (s : sstream) : Prop :=
  0 <= s_avail s /\ s_avail s <= as_size (s_win s) /\ s_avail s <= s_req s /\
  sumz (s_frames s) = s_buf s /\ Forall (fun f => 0 <= f) (s_frames s) /\
  MINW <= s_win s /\ s_win s <= MAXW /\ s_req s <= U32MAX.

(* [d] is capacity that has been claimed from streams and not yet handed back to the connection *)
Definition InvD (d : Z) (st : fstate) : Prop :=
  0 <= c_avail st /\ sum_avail (c_strs st) + c_avail st + d = c_win st /\ c_win st <= MAXW /\
  0 <= c_maxbuf st /\ 0 <= c_init st /\ c_init st <= MAXW /\
  Forall s_ok (c_strs st) /\ NoDup (map s_id (c_strs st)).

Definition Inv (st : fstate) : Prop := InvD 0 st.

Lemma s_ok_avail_nonneg l : Forall s_ok l -> Forall (fun s => 0 <= s_avail s) l.
Proof. apply Forall_impl. intros s H. apply H. Qed.

Lemma as_size_nonneg z : 0 <= z -> as_size z = z.
Proof. unfold as_size. lia. Qed.

Lemma in_i32_true z : MINW <= z <= MAXW -> in_i32 z = true.
Proof. unfold in_i32, MINW, MAXW. lia. Qed.

Lemma InvD_find d st sid s : InvD d st -> find_s sid (c_strs st) = Some s -> s_ok s.
Proof. intros (_ & _ & _ & _ & _ & _ & H7 & _). apply Forall_find, H7. Qed.

(* [stream_facts HI F], for HI : InvD d st and F : find_s sid (c_strs st) = Some s, adds under these
   very names H1 .. H8, the conjuncts of the invariant, K1 .. K8, those of [s_ok s],
   Hid : s_id s = sid, Hb : 0 <= sumz (s_frames s) and Hs : 0 <= sum_avail (c_strs st) *)
Ltac stream_facts HI F :=
  pose proof HI as (H1 & H2 & H3 & H4 & H5 & H6 & H7 & H8);
  pose proof (Forall_find _ _ _ _ H7 F) as (K1 & K2 & K3 & K4 & K5 & K6 & K7 & K8);
  pose proof (find_s_id _ _ _ F) as Hid;
  pose proof (sumz_nonneg _ K5) as Hb;
  pose proof (sum_avail_nonneg _ (s_ok_avail_nonneg _ H7)) as Hs.

(* facts preserved by the steps that never touch the connection window / configuration *)
Definition frame_eq (st st' : fstate) : Prop :=
  c_win st' = c_win st /\ c_init st' = c_init st /\ c_maxbuf st' = c_maxbuf st /\
  map s_id (c_strs st') = map s_id (c_strs st).

Lemma put_frame st s' : frame_eq st (put st s').
Proof. unfold frame_eq. simp_s. repeat split; auto. apply upd_ids. Qed.

Definition calm (o : out) : Prop :=
  match o with OData _ _ | OStreamErr _ | OConnErr => False | _ => True end.

Definition quiet (outs : list out) : Prop := Forall calm outs.

Definition same_num (s s1 : sstream) : Prop :=
  s_id s1 = s_id s /\ s_win s1 = s_win s /\ s_avail s1 = s_avail s /\ s_req s1 = s_req s /\
  s_buf s1 = s_buf s /\ s_frames s1 = s_frames s.

Lemma s_ok_same s s1 : same_num s s1 -> s_ok s -> s_ok s1.
Proof.
  unfold same_num, s_ok. intros (_ & -> & -> & -> & -> & ->). auto.
Qed.

Lemma notify_spec mb prev s s1 outs :
  notify_if_up mb prev s = (s1, outs) -> same_num s s1 /\ s_dead s1 = s_dead s /\ quiet outs.
Proof.
  unfold notify_if_up, same_num. destruct (prev <? capacity mb s); intros [= <- <-].
  - repeat split. destruct (s_parked s); repeat constructor.
  - repeat split. constructor.
Qed.

Lemma notify_same mb prev s s1 outs : notify_if_up mb prev s = (s1, outs) -> same_num s s1.
Proof. intros H. apply (notify_spec _ _ _ _ _ H). Qed.

Lemma InvD_put d d' st sid s s' :
  InvD d st -> find_s sid (c_strs st) = Some s -> s_id s' = s_id s -> s_ok s' ->
  d' + s_avail s' = d + s_avail s -> InvD d' (put st s').
Proof.
  intros (H1 & H2 & H3 & H4 & H5 & H6 & H7 & H8) F Hid Hok Hav.
  assert (F' : find_s (s_id s') (c_strs st) = Some s) by (rewrite Hid, (find_s_id _ _ _ F); exact F).
  unfold InvD, put, set_strs. cbn [c_win c_avail c_maxbuf c_init c_strs].
  rewrite upd_ids, sum_avail_map, (sumz_map_upd s_avail s s' _ F'), <- sum_avail_map.
  repeat split; auto; [lia|apply Forall_upd; auto].
Qed.

Lemma InvD_set_cavail d d' st a :
  InvD d st -> 0 <= a -> d' + a = d + c_avail st -> InvD d' (set_cavail st a).
Proof.
  intros (H1 & H2 & H3 & H4 & H5 & H6 & H7 & H8) Ha Hd. unfold InvD. simp_s. repeat split; auto. lia.
Qed.

Lemma InvD_set_cwin d d' st w :
  InvD d st -> w <= MAXW -> d' + c_win st = d + w -> InvD d' (set_cwin st w).
Proof.
  intros (H1 & H2 & H3 & H4 & H5 & H6 & H7 & H8) Hw Hd. unfold InvD. simp_s. repeat split; auto. lia.
Qed.

Lemma find_put st sid s s' :
  find_s sid (c_strs st) = Some s -> s_id s' = s_id s -> find_s sid (c_strs (put st s')) = Some s'.
Proof.
  intros F Hid. pose proof (find_s_id _ _ _ F) as Hs. rewrite <- Hid in Hs. subst sid.
  apply (find_upd_same s' _ s F).
Qed.

Lemma put_put st a b : s_id a = s_id b -> put (put st a) b = put st b.
Proof. intros H. unfold put, set_strs. cbn [c_win c_avail c_maxbuf c_init c_strs]. now rewrite upd_upd. Qed.

Definition outcome_ok (d' : Z) (r : outcome) : Prop :=
  match r with
  | Ok st' _ => InvD d' st'
  | Stuck _ => True
  | Panic _ => False
  end.

Definition shuffles (d : Z) (st : fstate) (r : outcome) : Prop :=
  match r with
  | Ok st' outs => InvD d st' /\ shifted (fun _ => 0) st st' /\ quiet outs
  | Stuck _ => True
  | Panic _ => False
  end.

Lemma shuffles_ok d st r : shuffles d st r -> outcome_ok d r.
Proof. destruct r; cbn [shuffles outcome_ok]; tauto. Qed.

Lemma shuffles_same d st outs : InvD d st -> quiet outs -> shuffles d st (Ok st outs).
Proof. intros HI Hq. split; [exact HI|]. split; [apply shifted_same; reflexivity|exact Hq]. Qed.

Lemma shuffles_nop d st : InvD d st -> shuffles d st (Ok st []).
Proof. intros HI. apply shuffles_same; [exact HI|constructor]. Qed.

Lemma shuffles_from d st0 st r : shifted (fun _ => 0) st0 st -> shuffles d st r -> shuffles d st0 r.
Proof.
  intros E. destruct r; cbn [shuffles]; auto.
  intros (A & B & C). split; [exact A|]. split; [|exact C].
  apply (shifted_trans _ _ _ st0 st _ E B). intros k. lia.
Qed.

Lemma add_outs_shuffles d st pre r : quiet pre -> shuffles d st r -> shuffles d st (add_outs pre r).
Proof.
  intros Hq. destruct r; cbn [add_outs shuffles]; auto.
  intros (A & B & C). split; [exact A|]. split; [exact B|]. apply Forall_app. split; assumption.
Qed.

Lemma bind_shuffles d st r f :
  shuffles d st r -> (forall st1 o1, InvD d st1 -> quiet o1 -> shuffles d st1 (f st1 o1)) ->
  shuffles d st (bind r f).
Proof.
  intros Hr Hf. destruct r as [st1 o1| |]; cbn [bind shuffles] in *; auto.
  destruct Hr as (A & B & C). apply (shuffles_from d st st1 _ B). apply Hf; assumption.
Qed.

Lemma vs_nil_shuffles d st st' outs (vs : list visit) n :
  shuffles d st (Ok st' outs) -> shuffles d st (match vs with [] => Ok st' outs | _ => Stuck n end).
Proof. destruct vs; [auto|intros _; exact I]. Qed.

Lemma put_shuffles d st sid s s' outs :
  InvD d st -> find_s sid (c_strs st) = Some s -> sproj s' = sproj s -> s_ok s' ->
  s_avail s' = s_avail s -> quiet outs -> shuffles d st (Ok (put st s') outs).
Proof.
  intros HI F Hp Hok Hav Hq. split; [|split; [exact (shifted_put_same st sid s s' F Hp)|exact Hq]].
  apply (InvD_put d d st sid s s' HI F (f_equal fst Hp) Hok). lia.
Qed.

Lemma try_assign_shuffles d st sid o :
  0 <= d -> InvD d st -> shuffles d st (try_assign st sid o).
Proof.
  intros Hd HI. unfold try_assign.
  destruct (find_s sid (c_strs st)) as [s|] eqn:F; [|exact I].
  stream_facts HI F.
  pose proof (shuffles_nop d st HI) as Nop.
  destruct (o_pending_open o); [exact Nop|].
  rewrite (as_size_nonneg (s_avail s)) by assumption.
  destruct (s_req s <? s_avail s) eqn:E1; [lia|].
  destruct (as_size (s_win s) <? s_avail s) eqn:E2; [lia|].
  set (additional := Z.min (s_req s - s_avail s) (as_size (s_win s) - s_avail s)).
  destruct (additional =? 0) eqn:E3; [exact Nop|].
  destruct (negb (o_streaming o) && (s_buf s =? 0)); [exact Nop|].
  rewrite (as_size_nonneg (c_avail st)) by assumption.
  destruct (0 <? c_avail st) eqn:E5; [|exact Nop].
  set (assign := Z.min (c_avail st) additional).
  assert (Ha : 0 < assign <= c_avail st /\ assign <= s_req s - s_avail s /\
               assign <= as_size (s_win s) - s_avail s) by (unfold assign, additional in *; lia).
  assert (Hws : as_size (s_win s) <= MAXW) by (unfold as_size; lia).
  rewrite in_i32_true by (unfold MINW, MAXW in *; lia). cbn [negb].
  destruct (notify_if_up (c_maxbuf st) (capacity (c_maxbuf st) s) (set_avail s (s_avail s + assign)))
    as [s1 outs] eqn:En.
  rewrite in_i32_true by (unfold MINW, MAXW in *; lia). cbn [negb].
  destruct (notify_spec _ _ _ _ _ En) as (Hsame & Hdead & Hq).
  assert (Hok : s_ok s1).
  { apply (s_ok_same _ _ Hsame). unfold s_ok; simp_s. repeat split; auto; lia. }
  destruct Hsame as (S1 & S2 & S3 & _). cbn [set_avail s_id s_win s_avail s_dead] in S1, S2, S3, Hdead.
  split; [|split; [|exact Hq]].
  - apply (InvD_set_cavail (d - assign)); [|lia|simp_s; lia].
    apply (InvD_put d _ st sid s s1 HI F S1 Hok). lia.
  - change (shifted (fun _ => 0) st (put st s1)).
    apply (shifted_put_same st sid s s1 F). unfold sproj. congruence.
Qed.

Lemma visit_all_shuffles d vs : forall st outs,
  0 <= d -> InvD d st -> quiet outs -> shuffles d st (visit_all st outs vs).
Proof.
  induction vs as [|v vs IH]; intros st outs Hd HI Hq; cbn [visit_all].
  - apply shuffles_same; assumption.
  - destruct (c_avail st <=? 0); [exact I|].
    pose proof (try_assign_shuffles d st (v_sid v) (v_obs v) Hd HI) as X.
    destruct (try_assign st (v_sid v) (v_obs v)) as [st1 o1| |]; cbn [shuffles] in X; auto.
    destruct X as (HI1 & V & Q1). apply (shuffles_from d st st1 _ V).
    apply IH; [exact Hd|exact HI1|]. apply Forall_app. split; assumption.
Qed.

(* assign_connection_capacity hands [inc] of the debt back *)
Lemma assign_conn_shuffles d st inc vs :
  0 <= d -> 0 <= inc -> InvD (d + inc) st -> shuffles d st (assign_conn st inc vs).
Proof.
  intros Hd Hinc HI. unfold assign_conn.
  pose proof HI as (H1 & H2 & H3 & H4 & H5 & H6 & H7 & H8).
  pose proof (sum_avail_nonneg _ (s_ok_avail_nonneg _ H7)) as Hs.
  rewrite in_i32_true by (unfold MINW, MAXW in *; lia). cbn [negb].
  apply (shuffles_from d st (set_cavail st (c_avail st + inc))); [exact (shifted_same _ st (fun _ => Z.le_refl 0))|].
  apply visit_all_shuffles; [exact Hd| |constructor].
  apply (InvD_set_cavail (d + inc)); [exact HI|lia|lia].
Qed.

(* claim [amount] from a record, then hand it back through assign_connection_capacity *)
Lemma claim_then_assign d st sid s s' amount vs :
  0 <= d -> InvD d st -> find_s sid (c_strs st) = Some s -> sproj s' = sproj s -> s_ok s' ->
  s_avail s' = s_avail s - amount -> 0 <= amount ->
  shuffles d st (assign_conn (put st s') amount vs).
Proof.
  intros Hd HI F Hp Hok Hav Ham.
  apply (shuffles_from d st (put st s')); [exact (shifted_put_same st sid s s' F Hp)|].
  apply assign_conn_shuffles; [exact Hd|exact Ham|].
  apply (InvD_put d _ st sid s s' HI F (f_equal fst Hp) Hok). lia.
Qed.

Lemma reclaim_all_shuffles d st sid vs :
  0 <= d -> InvD d st -> shuffles d st (reclaim_all st sid vs).
Proof.
  intros Hd HI. unfold reclaim_all.
  destruct (find_s sid (c_strs st)) as [s|] eqn:F; [|exact I].
  stream_facts HI F.
  rewrite (as_size_nonneg (s_avail s)) by assumption.
  destruct (0 <? s_avail s).
  - apply (claim_then_assign d st sid s _ _ vs Hd HI F); [reflexivity| |simp_s; lia|exact K1].
    unfold s_ok; simp_s. repeat split; auto; unfold as_size; lia.
  - apply vs_nil_shuffles, shuffles_nop, HI.
Qed.

Lemma reclaim_all_ok d st sid vs : 0 <= d -> InvD d st -> outcome_ok d (reclaim_all st sid vs).
Proof. intros Hd HI. apply (shuffles_ok d st), reclaim_all_shuffles; assumption. Qed.

Lemma reclaim_reserved_shuffles d st sid vs :
  0 <= d -> InvD d st -> shuffles d st (reclaim_reserved st sid vs).
Proof.
  intros Hd HI. unfold reclaim_reserved.
  destruct (find_s sid (c_strs st)) as [s|] eqn:F; [|exact I].
  stream_facts HI F.
  rewrite (as_size_nonneg (s_avail s)) by assumption.
  destruct (s_buf s <? s_avail s) eqn:E.
  - apply (claim_then_assign d st sid s _ _ vs Hd HI F); [reflexivity| |simp_s; lia|lia].
    unfold s_ok; simp_s. repeat split; auto; unfold as_size in *; lia.
  - apply vs_nil_shuffles, shuffles_nop, HI.
Qed.

(* clear_queue followed by reclaim_all_capacity (send_reset, handle_error, the scheduled-reset arm
   of pop_frame): the record transiently has available > requested = 0 in between *)
Lemma clear_then_reclaim_shuffles d st sid vs :
  0 <= d -> InvD d st ->
  shuffles d st (bind (clear_queue st sid) (fun st1 o1 => add_outs o1 (reclaim_all st1 sid vs))).
Proof.
  intros Hd HI. unfold clear_queue.
  destruct (find_s sid (c_strs st)) as [s|] eqn:F; [|exact I].
  cbn [bind]. apply add_outs_shuffles; [constructor|].
  stream_facts HI F.
  set (sc := set_req (set_bufq s 0 []) 0).
  unfold reclaim_all. rewrite (find_put st sid s sc F eq_refl).
  change (s_avail sc) with (s_avail s). rewrite (as_size_nonneg (s_avail s)) by assumption.
  destruct (0 <? s_avail s) eqn:E.
  - rewrite put_put by reflexivity.
    apply (claim_then_assign d st sid s _ _ vs Hd HI F); [reflexivity| |simp_s; lia|exact K1].
    unfold sc, s_ok; simp_s. repeat split; auto; unfold as_size; lia.
  - apply vs_nil_shuffles, (put_shuffles d st sid s sc [] HI F); [reflexivity| |reflexivity|constructor].
    unfold sc, s_ok; simp_s. repeat split; auto; lia.
Qed.

Lemma reserve_shuffles d st sid sc o cap vs :
  0 <= d -> InvD d st -> 0 <= cap -> shuffles d st (reserve st sid sc o cap vs).
Proof.
  intros Hd HI Hcap. unfold reserve.
  destruct (find_s sid (c_strs st)) as [s|] eqn:F; [|exact I].
  stream_facts HI F.
  destruct (cap + s_buf s =? s_req s); [apply vs_nil_shuffles, shuffles_nop, HI|].
  destruct (cap + s_buf s <? s_req s) eqn:E1.
  - change (s_avail (set_req s (cap + s_buf s))) with (s_avail s).
    rewrite (as_size_nonneg (s_avail s)) by assumption.
    destruct (cap + s_buf s <? s_avail s) eqn:E2.
    + apply (claim_then_assign d st sid s _ _ vs Hd HI F); [reflexivity| |simp_s; lia|lia].
      unfold s_ok; simp_s. repeat split; auto; unfold as_size in *; lia.
    + apply vs_nil_shuffles, (put_shuffles d st sid s _ [] HI F); [reflexivity| |reflexivity|constructor].
      unfold s_ok; simp_s. repeat split; auto; lia.
  - destruct sc; [apply vs_nil_shuffles, shuffles_nop, HI|].
    destruct vs; [|exact I].
    destruct (put_shuffles d st sid s (set_req s (Z.min (cap + s_buf s) U32MAX)) [] HI F)
      as (HI1 & V1 & _); [reflexivity| |reflexivity|constructor|].
    { unfold s_ok; simp_s. repeat split; auto; unfold U32MAX in *; lia. }
    apply (shuffles_from d st _ _ V1), try_assign_shuffles; assumption.
Qed.

Definition moves (d : Z) (b : N -> Z) (st : fstate) (r : outcome) : Prop :=
  match r with
  | Ok st' _ => InvD d st' /\ shifted b st st'
  | Stuck _ => True
  | Panic _ => False
  end.

Lemma recv_stream_wu_spec d st sid o inc :
  0 <= d -> InvD d st -> 0 <= inc ->
  moves d (fun k => if N.eqb sid k then inc else 0) st (recv_stream_wu st sid o inc).
Proof.
  intros Hd HI Hinc. unfold recv_stream_wu.
  destruct (find_s sid (c_strs st)) as [s|] eqn:F; [|exact I].
  stream_facts HI F.
  destruct (o_send_closed o && (s_buf s =? 0)).
  { split; [|apply (shifted_put inc st sid s (set_dead s) F eq_refl); discriminate].
    apply (InvD_put d d st sid s (set_dead s) HI F eq_refl); [exact (InvD_find _ _ _ _ HI F)|reflexivity]. }
  destruct (negb (in_i32 (s_win s + inc)) || (MAXW <? s_win s + inc)) eqn:E.
  { split; [exact HI|]. apply shifted_same. intros k. destruct (N.eqb sid k); lia. }
  apply orb_false_iff in E. destruct E as (E1 & E2).
  set (s' := set_win s (s_win s + inc)).
  assert (HI1 : InvD d (put st s')).
  { apply (InvD_put d d st sid s s' HI F eq_refl); [|reflexivity].
    unfold s', s_ok; simp_s. repeat split; auto; unfold as_size in *; lia. }
  pose proof (try_assign_shuffles d (put st s') sid o Hd HI1) as X.
  destruct (try_assign (put st s') sid o) as [st' outs| |]; cbn [shuffles] in X; auto.
  destruct X as (HI' & Sh & _). split; [exact HI'|].
  refine (shifted_trans _ _ _ st (put st s') st' (shifted_put inc st sid s s' F eq_refl _) Sh _).
  - intros Hdd. split; [exact Hdd|]. unfold s'; simp_s; lia.
  - intros k. lia.
Qed.

(* apply_remote_settings, increase branch: every touched record once *)
Lemma settings_inc_spec d touched : forall st outs inc,
  0 <= d -> InvD d st -> 0 <= inc -> nodup_keys touched = true ->
  moves d (fun k => if mem_touched k touched then inc else 0) st (settings_inc st outs inc touched).
Proof.
  induction touched as [|[sid o] t IH]; intros st outs inc Hd HI Hinc Hnd; cbn [settings_inc].
  - split; [exact HI|]. apply shifted_same. intros k. cbn [mem_touched]. lia.
  - cbn [nodup_keys] in Hnd. apply andb_true_iff in Hnd. destruct Hnd as (Hn1 & Hn2).
    apply negb_true_iff in Hn1.
    pose proof (recv_stream_wu_spec d st sid o inc Hd HI Hinc) as X.
    destruct (recv_stream_wu st sid o inc) as [st1 o1|n|n]; cbn [moves] in *; auto.
    destruct X as (HI1 & S1).
    (* the iteration stops at a stream error, or goes on with the rest *)
    assert (Stop : InvD d st1 /\ shifted (fun k => if mem_touched k ((sid, o) :: t) then inc else 0) st st1).
    { split; [exact HI1|]. apply (shifted_le _ _ st st1 S1).
      intros k. cbn [mem_touched]. destruct (N.eqb sid k), (mem_touched k t); cbn [orb]; lia. }
    specialize (IH st1 (outs ++ o1) inc Hd HI1 Hinc Hn2).
    assert (Go : moves d (fun k => if mem_touched k ((sid, o) :: t) then inc else 0) st
                   (settings_inc st1 (outs ++ o1) inc t)).
    { destruct (settings_inc st1 (outs ++ o1) inc t) as [st' o'| |]; cbn [moves] in *; auto.
      destruct IH as (HI' & S'). split; [exact HI'|]. apply (shifted_trans _ _ _ st st1 st' S1 S').
      intros k. cbn [mem_touched]. destruct (N.eqb_spec sid k) as [->|_]; [rewrite Hn1|];
        destruct (mem_touched k t); cbn [orb]; lia. }
    destruct o1 as [|x o1]; [exact Go|]. destruct x; try exact Go. exact Stop.
Qed.

(* apply_remote_settings, decrease branch: it accumulates the reclaimed capacity in [total], on top of
   the outstanding debt d, unless a window underflows *)
Definition dec_moves (d : Z) (b : N -> Z) (st : fstate) (total : Z) (r : outcome * Z) : Prop :=
  match r with
  | (Ok st' outs, total') =>
      total <= total' /\ InvD (d + total') st' /\ (outs = [OConnErr] \/ outs = [] /\ shifted b st st')
  | (Stuck _, _) => True
  | (Panic _, _) => False
  end.

Lemma settings_dec_spec d touched : forall st dec total,
  0 <= dec -> InvD (d + total) st ->
  dec_moves d (fun k => if mem_touched k touched then - dec else 0) st total
    (settings_dec st dec total touched).
Proof.
  induction touched as [|[sid o] t IH]; intros st dec total Hdec HI; cbn [settings_dec].
  - split; [lia|]. split; [exact HI|]. right. split; [reflexivity|].
    apply shifted_same. intros k. cbn [mem_touched]. lia.
  - destruct (find_s sid (c_strs st)) as [s|] eqn:F; [|exact I].
    stream_facts HI F.
    destruct (negb (in_i32 (s_win s - dec))) eqn:E; [split; [lia|split; [exact HI|now left]]|].
    apply negb_false_iff in E. unfold in_i32 in E. apply andb_true_iff in E. destruct E as (E1 & E2).
    (* both arms put a record with the lowered window and go on, with the reclaimed capacity added
       to the total *)
    assert (Step : forall s' rc, 0 <= rc -> s_id s' = s_id s -> s_ok s' -> s_dead s' = s_dead s ->
              s_win s' = s_win s - dec -> s_avail s' = s_avail s - rc -> forall tot, tot = total + rc ->
              dec_moves d (fun k => if mem_touched k ((sid, o) :: t) then - dec else 0) st total
                (settings_dec (put st s') dec tot t)).
    { intros s' rc Hrc Hi Hok Hdd Hw Hav tot ->.
      assert (HI1 : InvD (d + (total + rc)) (put st s')) by (apply (InvD_put _ _ st sid s s' HI F Hi Hok); lia).
      specialize (IH (put st s') dec (total + rc) Hdec HI1).
      destruct (settings_dec (put st s') dec (total + rc) t) as [[st' outs|n|n] total']; cbn [dec_moves] in *; auto.
      destruct IH as (A & B & C). split; [lia|]. split; [exact B|].
      destruct C as [C|(C & S)]; [now left|right]. split; [exact C|].
      refine (shifted_trans _ _ _ st (put st s') st' (shifted_put (- dec) st sid s s' F Hi _) S _).
      - intros Hx. split; [congruence|lia].
      - intros k. clear - Hdec. cbn [mem_touched]. destruct (N.eqb sid k), (mem_touched k t); cbn [orb]; lia. }
    change (s_avail (set_win s (s_win s - dec))) with (s_avail s).
    change (s_win (set_win s (s_win s - dec))) with (s_win s - dec).
    rewrite (as_size_nonneg (s_avail s)) by assumption.
    destruct (as_size (s_win s - dec) <? s_avail s) eqn:E3.
    + apply (Step _ (s_avail s - as_size (s_win s - dec))); try reflexivity; [unfold as_size in *; lia|].
      clear Step IH. unfold s_ok; simp_s. repeat split; auto; unfold as_size in *; lia.
    + apply (Step _ 0); try reflexivity; [|simp_s; lia|lia].
      clear Step IH. unfold s_ok; simp_s. repeat split; auto; unfold as_size in *; lia.
Qed.

Lemma InvD_mark d st t : InvD d st -> InvD d (set_strs st (mark_untouched t (c_strs st))).
Proof.
  intros (H1 & H2 & H3 & H4 & H5 & H6 & H7 & H8). unfold InvD, mark_untouched. simp_s.
  rewrite sum_avail_map, !map_map. rewrite sum_avail_map in H2.
  rewrite (map_ext _ s_avail), (map_ext (fun x => s_id _) s_id);
    try (intros x; destruct (mem_touched (s_id x) t); reflexivity).
  repeat split; auto. apply Forall_map. revert H7. apply Forall_impl.
  intros x Hx. destruct (mem_touched (s_id x) t); exact Hx.
Qed.

(* what the environment guarantees about label arguments: unsigned values, and the 31-bit bound that
   the frame parser enforces on window increments and SETTINGS_INITIAL_WINDOW_SIZE *)
Definition label_ok (l : label) : Prop :=
  match l with
  | LSendData _ _ sz _ _ => 0 <= sz
  | LReserve _ _ cap _ => 0 <= cap
  | LRecvStreamWU _ _ inc => 0 <= inc <= MAXW
  | LRecvConnWU inc _ => 0 <= inc <= MAXW
  | LApplySettings new _ _ => 0 <= new <= MAXW
  | LPopData _ sz max_len => 0 <= sz /\ 0 <= max_len
  | _ => True
  end.

Fixpoint has_conn_err (o : list out) : bool :=
  match o with
  | [] => false
  | OConnErr :: _ => true
  | _ :: o' => has_conn_err o'
  end.

(* Result of one label from a state with outstanding debt d (capacity that a failed SETTINGS
   decrease claimed and never handed back): no panic; the debt never shrinks, and grows only on a
   step that reports a connection error. *)
Definition step_result_ok (d : Z) (r : outcome) : Prop :=
  match r with
  | Ok st' outs => (exists d', d <= d' /\ InvD d' st') /\ (has_conn_err outs = false -> InvD d st')
  | Stuck _ => True
  | Panic _ => False
  end.

Lemma outcome_ok_result d r : outcome_ok d r -> step_result_ok d r.
Proof.
  destruct r; cbn [outcome_ok step_result_ok]; auto.
  intros HI. split; [exists d; split; [lia|exact HI]|auto].
Qed.

Lemma apply_settings_spec d st new touched vs :
  0 <= d -> InvD d st -> 0 <= new <= MAXW ->
  match step st (LApplySettings new touched vs) with
  | Ok st' outs =>
      step_result_ok d (Ok st' outs) /\
      (has_conn_err outs = false -> shifted (fun _ => new - c_init st) (set_cinit st new) st')
  | Stuck _ => True
  | Panic _ => False
  end.
Proof.
  intros Hd HI Hnew. cbn [step].
  destruct (negb (nodup_keys touched)) eqn:End; [exact I|]. apply negb_false_iff in End.
  assert (X0 : InvD d (set_cinit st new)).
  { destruct HI as (H1 & H2 & H3 & H4 & H5 & H6 & H7 & H8). unfold InvD. simp_s. repeat split; auto; lia. }
  destruct (new <? c_init st) eqn:E1.
  - replace d with (d + 0) in X0 by lia.
    pose proof (settings_dec_spec d touched _ (c_init st - new) 0 ltac:(lia) X0) as Y.
    destruct (settings_dec (set_cinit st new) (c_init st - new) 0 touched) as [[st1 o1|n|n] total]; auto.
    destruct Y as (A & B & [->|(-> & S)]).
    { split; [|discriminate]. split; [exists (d + total); split; [lia|exact B]|discriminate]. }
    pose proof (assign_conn_shuffles d _ total vs Hd A (InvD_mark _ _ touched B)) as Z.
    destruct (assign_conn _ total vs) as [st' outs| |]; cbn [shuffles] in Z; auto.
    destruct Z as (HI' & Sh & _). split; [apply outcome_ok_result; exact HI'|]. intros _.
    refine (shifted_trans _ _ _ _ _ st'
              (shifted_trans _ _ _ _ st1 _ S (shifted_mark (new - c_init st) touched st1) (fun k => Z.le_refl _))
              Sh _).
    intros k. cbn beta. destruct (mem_touched k touched); lia.
  - destruct (c_init st <? new) eqn:E2.
    + destruct vs; [|exact I].
      pose proof (settings_inc_spec d touched (set_cinit st new) [] (new - c_init st) Hd X0 ltac:(lia) End) as Y.
      destruct (settings_inc (set_cinit st new) [] (new - c_init st) touched) as [st' outs| |]; auto.
      destruct Y as (HI' & S). split; [apply outcome_ok_result; exact HI'|]. intros _.
      apply (shifted_le _ _ _ st' S). intros k. destruct (mem_touched k touched); lia.
    + destruct vs; [|exact I]. destruct touched; [|exact I].
      split; [apply outcome_ok_result; exact X0|]. intros _. apply shifted_same. intros k. lia.
Qed.

Lemma recv_conn_wu_spec d st inc vs :
  0 <= d -> InvD d st -> 0 <= inc ->
  match step st (LRecvConnWU inc vs) with
  | Ok st' outs =>
      InvD d st' /\
      (has_conn_err outs = false -> shifted (fun _ => 0) (set_cwin st (c_win st + inc)) st')
  | Stuck _ => True
  | Panic _ => False
  end.
Proof.
  intros Hd HI Hinc. cbn [step].
  destruct (negb (in_i32 (c_win st + inc)) || (MAXW <? c_win st + inc)) eqn:E.
  { split; [exact HI|discriminate]. }
  apply orb_false_iff in E. destruct E as (_ & E).
  assert (HI1 : InvD (d + inc) (set_cwin st (c_win st + inc))) by (apply (InvD_set_cwin d); [exact HI|lia|lia]).
  pose proof (assign_conn_shuffles d _ inc vs Hd Hinc HI1) as X.
  destruct (assign_conn _ inc vs) as [st' outs| |]; cbn [shuffles] in X; auto.
  split; [apply X|intros _; apply X].
Qed.

(* the DATA arm of pop_frame; it is refused only when a non-empty frame meets a dead stream, no assigned
   capacity, or a window below the capacity *)
Lemma pop_data_spec d st sid sz mx :
  0 <= d -> InvD d st -> 0 <= sz -> 0 <= mx ->
  match step st (LPopData sid sz mx) with
  | Ok st' outs =>
      exists s q s2 o2 len,
        find_s sid (c_strs st) = Some s /\ s_frames s = sz :: q /\
        len = Z.min (Z.min sz mx) (s_avail s) /\ 0 <= len /\
        (0 < sz -> s_dead s = false /\ 0 < s_avail s) /\ (0 < len -> len <= s_win s /\ len <= c_win st) /\
        s_id s2 = s_id s /\ s_frames s2 = (if len <? sz then (sz - len) :: q else q) /\
        st' = set_cwin (put st s2) (c_win st - len) /\ InvD d st' /\
        shifted (fun k => if N.eqb sid k then - len else 0) (set_cwin st (c_win st - len)) st' /\
        outs = OData sid len :: o2 /\ quiet o2
  | Stuck _ =>
      forall s q, find_s sid (c_strs st) = Some s -> s_frames s = sz :: q ->
      0 < sz /\ (s_dead s = true \/ s_avail s = 0) \/
      as_size (s_win s) < Z.min (Z.min sz mx) (s_avail s)
  | Panic _ => False
  end.
Proof.
  intros Hd HI Hsz Hmx. cbn [step].
  destruct (find_s sid (c_strs st)) as [s|] eqn:F; [|intros s0 q0 [=]].
  destruct (s_frames s) as [|f q] eqn:EQ; [intros s0 q0 [= <-]; congruence|].
  destruct (Z.eqb_spec f sz) as [->|Hne]; cbn [negb]; [|intros s0 q0 [= <-]; congruence].
  destruct (s_dead s && (0 <? sz)) eqn:Eg0.
  { intros s0 q0 [= <-] _. apply andb_true_iff in Eg0. left. split; [lia|left; apply Eg0]. }
  assert (Hlive : 0 < sz -> s_dead s = false) by (destruct (s_dead s); [cbn [andb] in Eg0; lia|reflexivity]).
  (* each guard's boolean equation goes once its content is recorded: lia reads every hypothesis *)
  clear Eg0.
  destruct ((0 <? sz) && (s_avail s =? 0)) eqn:Eg1; [intros s0 q0 [= <-] _; lia|].
  stream_facts HI F.
  rewrite (as_size_nonneg (s_avail s)) by assumption.
  set (len := Z.min (Z.min sz mx) (s_avail s)).
  assert (Hlen : 0 <= len <= sz /\ len <= s_avail s /\ (0 < sz -> 0 < s_avail s)) by (unfold len; lia).
  clear Eg1.
  destruct ((0 <? len) && (as_size (s_win s) <? len)) eqn:Eg2; [intros s0 q0 [= <-] _; lia|].
  assert (Hwin : 0 < len -> len <= s_win s) by (unfold as_size in *; lia).
  clear Eg2.
  rewrite EQ in K4, K5. cbn [sumz] in K4. apply Forall_cons_iff in K5. destruct K5 as (_ & Kq).
  pose proof (sumz_nonneg _ Kq) as Hq.
  destruct ((0 <? len) && (s_win s <? len)) eqn:Ep6; [lia|clear Ep6].
  destruct (Z.ltb_spec (s_buf s) len) as [Ep7|_]; [lia|].
  destruct (Z.ltb_spec (s_req s) len) as [Ep8|_]; [lia|].
  set (q' := if len <? sz then (sz - len) :: q else q).
  set (s1 := set_req (set_bufq (set_avail (set_win s (s_win s - len)) (s_avail s - len)) (s_buf s - len) q')
                     (s_req s - len)).
  destruct (notify_if_up (c_maxbuf st) (capacity (c_maxbuf st) s) s1) as [s2 o2] eqn:En.
  destruct (notify_spec _ _ _ _ _ En) as (Hsame & Hdead & Hqt).
  assert (Hin : s_avail s <= sum_avail (c_strs st)).
  { rewrite sum_avail_map. apply sumz_ge; [apply Forall_map, s_ok_avail_nonneg, H7|].
    apply in_map, (find_s_In _ _ _ F). }
  destruct ((0 <? len) && (c_win st <? len)) eqn:Ep9; [lia|clear Ep9].
  assert (Hq' : sumz q' = s_buf s - len /\ Forall (fun f => 0 <= f) q').
  { unfold q'. clear - K4 Kq Hlen. clearbody len.
    destruct (len <? sz) eqn:El; cbn [sumz]; (split; [lia|]); [constructor; [lia|]|]; exact Kq. }
  assert (Hok : s_ok s2).
  { apply (s_ok_same _ _ Hsame). clear - K1 K2 K3 K6 K7 K8 Hlen Hwin Hq'. clearbody len.
    unfold s1, s_ok; simp_s. unfold as_size, MINW, MAXW, U32MAX in *.
    repeat split; try apply Hq'; lia. }
  destruct Hsame as (S1 & S2 & S3 & _ & _ & S6).
  exists s, q, s2, o2, len.
  split; [reflexivity|]. split; [exact EQ|]. split; [reflexivity|]. split; [lia|].
  split; [intros Hp; split; [exact (Hlive Hp)|lia]|]. split; [lia|].
  split; [exact S1|]. split; [exact S6|]. split; [reflexivity|].
  split; [|split; [|split; [reflexivity|exact Hqt]]].
  - apply (InvD_set_cwin (d + len)); [|lia|cbn [put set_strs c_win]; lia].
    apply (InvD_put d _ st sid s s2 HI F S1 Hok). rewrite S3. unfold s1; simp_s. lia.
  - split; [reflexivity|]. split; [reflexivity|].
    apply (shifted_put (- len) st sid s s2 F S1). rewrite Hdead, S2. intros Hx. split; [exact Hx|].
    unfold s1; simp_s. lia.
Qed.

(* the labels that shift no window and emit no DATA: they queue data, move capacity between the
   connection and the records, or set flags *)
Definition shuffling (l : label) : bool :=
  match l with
  | LNew _ _ | LRemove _ | LRecvStreamWU _ _ _ | LRecvConnWU _ _ | LApplySettings _ _ _ | LPopData _ _ _ => false
  | _ => true
  end.

Lemma step_shuffles d st l :
  0 <= d -> InvD d st -> label_ok l -> shuffling l = true -> shuffles d st (step st l).
Proof.
  intros Hd HI Hl Hsh.
  destruct l as [sid init|sid|sid o sz eos vs|sid o cap vs|sid o inc|inc vs|sid o isr qe vs|sid vs|sid o vs
                |new touched vs|sid sz mx|sid o|sid|sid|sid|sid o]; try discriminate Hsh; cbn [step label_ok] in *.
  - (* LSendData *)
    destruct (find_s sid (c_strs st)) as [s|] eqn:F; [|exact I].
    destruct (MAXW <? sz); [apply shuffles_same; [exact HI|repeat constructor]|].
    destruct (negb (o_streaming o)); [apply shuffles_same; [exact HI|repeat constructor]|].
    destruct (s_dead s); [exact I|].
    stream_facts HI F.
    set (s1 := set_bufq s (s_buf s + sz) (s_frames s ++ [sz])).
    assert (Hok1 : s_ok s1).
    { unfold s1, s_ok; simp_s. rewrite sumz_app. cbn [sumz]. repeat split; auto; try lia.
      apply Forall_app; split; auto. }
    assert (R1 : shuffles d st
                   (if s_req s1 <? s_buf s1
                    then try_assign (put st (set_req s1 (Z.min (s_buf s1) U32MAX))) sid o
                    else Ok (put st s1) [])).
    { destruct (s_req s1 <? s_buf s1) eqn:E.
      - destruct (put_shuffles d st sid s (set_req s1 (Z.min (s_buf s1) U32MAX)) [] HI F)
          as (HI2 & V2 & _); [reflexivity| |reflexivity|constructor|].
        { unfold s1, s_ok in *; simp_s. repeat split; try apply Hok1; unfold U32MAX in *; lia. }
        apply (shuffles_from d st _ _ V2), try_assign_shuffles; assumption.
      - apply (put_shuffles d st sid s s1 [] HI F); [reflexivity|exact Hok1|reflexivity|constructor]. }
    destruct eos.
    + apply bind_shuffles; [exact R1|].
      intros st1 o1 HI1 Hq. apply add_outs_shuffles; [exact Hq|]. apply reserve_shuffles; [exact Hd|exact HI1|lia].
    + destruct vs; [exact R1|exact I].
  - (* LReserve *) apply reserve_shuffles; assumption.
  - (* LSendReset *)
    destruct (find_s sid (c_strs st)) as [s|] eqn:F; [|exact I].
    destruct isr; [apply vs_nil_shuffles, shuffles_nop, HI|].
    assert (X0 : shuffles d st (Ok (put st (set_parked s false)) (if s_parked s then [OWake sid] else []))).
    { apply (put_shuffles d st sid s _ _ HI F); [reflexivity|exact (InvD_find _ _ _ _ HI F)|reflexivity|].
      destruct (s_parked s); repeat constructor. }
    destruct (o_closed o && qe && (s_buf s =? 0)); [apply vs_nil_shuffles, X0|].
    destruct X0 as (HI0 & S0 & Q0).
    apply add_outs_shuffles; [exact Q0|].
    apply (shuffles_from d st _ _ S0), clear_then_reclaim_shuffles; assumption.
  - (* LHandleError *) apply clear_then_reclaim_shuffles; assumption.
  - (* LImplicitReset *)
    destruct (o_closed o); [apply vs_nil_shuffles, shuffles_nop, HI|].
    apply reclaim_reserved_shuffles; assumption.
  - (* LPollCapacity *)
    destruct (find_s sid (c_strs st)) as [s|] eqn:F; [|exact I].
    pose proof (InvD_find _ _ _ _ HI F) as Hok.
    destruct (negb (o_streaming o)); [apply shuffles_same; [exact HI|repeat constructor]|].
    destruct (negb (s_capinc s)); [|destruct (capacity (c_maxbuf st) (set_capinc s false) =? 0)];
      (apply (put_shuffles d st sid s _ _ HI F); [reflexivity|exact Hok|reflexivity|repeat constructor]).
  - (* LCapacity *)
    destruct (find_s sid (c_strs st)) as [s|] eqn:F; [|exact I].
    apply shuffles_same; [exact HI|repeat constructor].
  - (* LNotify *)
    destruct (find_s sid (c_strs st)) as [s|] eqn:F; [|apply shuffles_nop, HI].
    apply (put_shuffles d st sid s _ _ HI F); [reflexivity|exact (InvD_find _ _ _ _ HI F)|reflexivity|].
    destruct (s_parked s); repeat constructor.
  - (* LWait *)
    destruct (find_s sid (c_strs st)) as [s|] eqn:F; [|apply shuffles_nop, HI].
    apply (put_shuffles d st sid s _ _ HI F); [reflexivity|exact (InvD_find _ _ _ _ HI F)|reflexivity|constructor].
  - (* LTryAssign *) apply try_assign_shuffles; assumption.
Qed.

Theorem step_inv d st l : 0 <= d -> InvD d st -> label_ok l -> step_result_ok d (step st l).
Proof.
  intros Hd HI Hl.
  assert (Sh : shuffling l = true -> step_result_ok d (step st l)).
  { intros E. apply outcome_ok_result, (shuffles_ok d st), step_shuffles; assumption. }
  destruct l as [sid init|sid|sid o sz eos vs|sid o cap vs|sid o inc|inc vs|sid o isr qe vs|sid vs|sid o vs
                |new touched vs|sid sz mx|sid o|sid|sid|sid|sid o]; try (apply Sh; reflexivity);
    cbn [label_ok] in Hl.
  - (* LNew *)
    cbn [step]. destruct HI as (H1 & H2 & H3 & H4 & H5 & H6 & H7 & H8).
    destruct (find_s sid (c_strs st)) eqn:F; [exact I|].
    destruct (negb ((init =? c_init st) || (init =? 0))) eqn:E; [exact I|].
    apply outcome_ok_result. cbn [outcome_ok]. unfold InvD. simp_s. cbn [sum_avail map s_avail s_id].
    repeat split; auto; try lia.
    + constructor; auto. unfold s_ok; simp_s. cbn [sumz]. unfold as_size, MINW, MAXW, U32MAX in *.
      repeat split; auto; lia.
    + constructor; auto. apply find_s_none_notin. exact F.
  - (* LRemove *)
    cbn [step]. destruct HI as (H1 & H2 & H3 & H4 & H5 & H6 & H7 & H8).
    destruct (find_s sid (c_strs st)) as [s|] eqn:F; [|exact I].
    destruct (s_avail s =? 0) eqn:E; [|exact I].
    apply outcome_ok_result. cbn [outcome_ok]. unfold InvD. simp_s.
    rewrite sum_avail_map, (sumz_map_del _ _ _ _ F), <- sum_avail_map.
    repeat split; auto; try lia. apply Forall_del; auto. apply del_ids_NoDup; auto.
  - (* LRecvStreamWU *)
    pose proof (recv_stream_wu_spec d st sid o inc Hd HI (proj1 Hl)) as X. cbn [step].
    destruct (recv_stream_wu st sid o inc); auto. apply outcome_ok_result, X.
  - (* LRecvConnWU *)
    pose proof (recv_conn_wu_spec d st inc vs Hd HI (proj1 Hl)) as X.
    destruct (step st (LRecvConnWU inc vs)); auto. apply outcome_ok_result, X.
  - (* LApplySettings *)
    pose proof (apply_settings_spec d st new touched vs Hd HI Hl) as X.
    destruct (step st (LApplySettings new touched vs)); auto. apply X.
  - (* LPopData *)
    pose proof (pop_data_spec d st sid sz mx Hd HI (proj1 Hl) (proj2 Hl)) as X.
    destruct (step st (LPopData sid sz mx)) as [st' outs| |]; cbn [step_result_ok]; auto.
    destruct X as (s & q & s2 & o2 & len & X). apply (outcome_ok_result d (Ok st' outs)), X.
Qed.
