(* The invariant of the store model, what it says about the keys in use (no_stale_key), and one
   preservation lemma per primitive; the walk over the labels is sstep_inv in Proofs/StoreProofs.v. *)
From H2V Require Import Base.Tac Model.Store Proofs.CountsProofs Proofs.StoreLists.
Local Open Scope N_scope.

Definition ids_ok (sl : list (N * rec)) (ids : list (N * N)) : Prop :=
  forall id idx, alook id ids = Some idx -> exists r, alook idx sl = Some r /\ r_id r = id.
Definition h_res (sl : list (N * rec)) (hs : list (key * N)) : Prop :=
  forall k s, In (k, s) hs -> exists r, alook (fst k) sl = Some r /\ r_id r = snd k /\ r_serial r = s.
Definition h_cnt (sl : list (N * rec)) (hs : list (key * N)) : Prop :=
  forall idx r, alook idx sl = Some r -> r_ref r = hcount (idx, r_id r) hs.
Definition q_res (sl : list (N * rec)) (q : list (qid * key)) : Prop :=
  forall x k, In (x, k) q -> exists r, alook (fst k) sl = Some r /\ r_id r = snd k.
Definition q_cnt (sl : list (N * rec)) (q : list (qid * key)) : Prop :=
  forall idx r f, alook idx sl = Some r -> qcount f (idx, r_id r) q = b2n (r_fl r f).
Definition reason_ok (sl : list (N * rec)) : Prop :=
  forall idx r, alook idx sl = Some r -> has_reason r = true \/ r_owed r = true.

Record SInv (st : sstate) : Prop := mkSInv {
  I_slab : NoDup (map fst (slab st));
  I_ids : ids_ok (slab st) (ids st);
  I_hres : h_res (slab st) (handles st);
  I_hcnt : h_cnt (slab st) (handles st);
  I_refs : refs st = nstreams st + N.of_nat (length (handles st));
  I_qres : q_res (slab st) (qs st);
  I_qcnt : q_cnt (slab st) (qs st);
  I_cs : CInv (cs st);
  I_reason : reason_ok (slab st)
}.

Lemma resolve_spec st k r : resolve st k = Some r <-> alook (fst k) (slab st) = Some r /\ r_id r = snd k.
Proof.
  unfold resolve. destruct (alook (fst k) (slab st)) as [r0|]; [|split; [discriminate|intros (H & _); discriminate]].
  destruct (N.eqb_spec (r_id r0) (snd k)) as [E|E].
  - split; [intros [= <-]; auto|intros (H & _); exact H].
  - split; [discriminate|intros ([= <-] & H2); contradiction].
Qed.

Lemma resolve_key st k r : resolve st k = Some r -> k = (fst k, r_id r).
Proof. intros H. apply resolve_spec in H. destruct H as (_ & H). destruct k; cbn [fst snd] in *. congruence. Qed.

Lemma ref_at st k r : SInv st -> resolve st k = Some r -> r_ref r = hcount k (handles st).
Proof.
  intros H Hr. rewrite (resolve_key st k r Hr). apply resolve_spec in Hr. exact (I_hcnt st H _ _ (proj1 Hr)).
Qed.

Lemma flag_at st k r f : SInv st -> resolve st k = Some r -> qcount f k (qs st) = b2n (r_fl r f).
Proof.
  intros H Hr. rewrite (resolve_key st k r Hr). apply resolve_spec in Hr. exact (I_qcnt st H _ _ f (proj1 Hr)).
Qed.

(* a key held by a handle, a queue or the id map resolves, and to the record it was taken for *)
Theorem no_stale_key st : SInv st ->
  (forall k s, In (k, s) (handles st) -> exists r, resolve st k = Some r /\ r_serial r = s /\ 0 < r_ref r) /\
  (forall q k, In (q, k) (qs st) -> exists r, resolve st k = Some r /\ r_fl r (flag_of q) = true) /\
  (forall id idx, alook id (ids st) = Some idx -> exists r, resolve st (idx, id) = Some r) /\
  (forall k r, resolve st k = Some r -> r_id r = snd k).
Proof.
  intros H. repeat split.
  - intros k s Hi. destruct (I_hres _ H k s Hi) as (r & A & B & C).
    assert (Hr : resolve st k = Some r) by (apply resolve_spec; auto).
    exists r. repeat split; [exact Hr|exact C|].
    apply N.neq_0_lt_0. rewrite (ref_at st k r H Hr). intros Z. exact (proj1 (hcount_zero _ _) Z s Hi).
  - intros q k Hi. destruct (I_qres _ H q k Hi) as (r & A & B).
    assert (Hr : resolve st k = Some r) by (apply resolve_spec; auto).
    exists r. split; [exact Hr|].
    pose proof (flag_at st k r (flag_of q) H Hr) as Z. destruct (r_fl r (flag_of q)); [reflexivity|].
    destruct (proj1 (qcount_zero _ _ _) Z q eq_refl Hi).
  - intros id idx A. destruct (I_ids _ H id idx A) as (r & B & C). exists r. apply resolve_spec. auto.
  - intros k r A. apply resolve_spec in A. apply A.
Qed.

Lemma any_flag_iff r : any_flag r = true <-> exists f, r_fl r f = true.
Proof.
  unfold any_flag. rewrite existsb_exists. split; [intros (f & _ & H); eauto|].
  intros (f & H). exists f. split; [destruct f; cbn; auto 10|exact H].
Qed.

Lemma no_flags_false r f : no_flags r = true -> r_fl r f = false.
Proof.
  unfold no_flags. rewrite negb_true_iff, <- not_true_iff_false, any_flag_iff. intros H.
  destruct (r_fl r f) eqn:E; [destruct H; eauto|reflexivity].
Qed.

Lemma has_reason_iff r : has_reason r = true <-> 0 < r_ref r \/ (exists f, r_fl r f = true) \/ r_closed r = false.
Proof. unfold has_reason. rewrite !orb_true_iff, N.ltb_lt, any_flag_iff, negb_true_iff. tauto. Qed.

Lemma has_reason_seen r c : has_reason (with_seen r c) = negb (c && (r_ref r =? 0) && no_flags r).
Proof.
  unfold has_reason, with_seen, no_flags. cbn [r_ref r_fl r_closed].
  change (any_flag (mkR _ _ _ (r_fl r) _ _)) with (any_flag r).
  destruct (N.eqb_spec (r_ref r) 0) as [->|E].
  - destruct c, (any_flag r); reflexivity.
  - apply N.neq_0_lt_0, N.ltb_lt in E. rewrite E, andb_false_r. reflexivity.
Qed.

Lemma sinv_set_cs st c : SInv st -> CInv c -> SInv (set_cs st c).
Proof. intros [] Hc. constructor; assumption. Qed.

(* Streams::clone / Streams::drop *)
Lemma sinv_set_refs st n m : SInv st -> n = m + N.of_nat (length (handles st)) -> SInv (set_refs st n m (handles st)).
Proof. intros [] E. constructor; assumption. Qed.

(* Ptr::unlink *)
Lemma sinv_unlink st id : SInv st -> SInv (set_ids st (adel id (ids st))).
Proof.
  intros H. constructor; try apply H.
  intros id' idx'. cbn [ids set_ids]. rewrite alook_adel. destruct (id =? id'); [discriminate|apply H].
Qed.

(* Store::insert into a vacant slot: no handle and no queue entry carries a key of that slot *)
Lemma sinv_insert st idx serial id :
  SInv st -> alook idx (slab st) = None ->
  SInv (set_ids (set_slab st ((idx, new_rec serial id) :: slab st)) ((id, idx) :: ids st)).
Proof.
  intros H Hv.
  assert (K : forall j r0, alook j (slab st) = Some r0 -> alook j ((idx, new_rec serial id) :: slab st) = Some r0).
  { intros j r0 A. cbn [alook]. destruct (N.eqb_spec idx j) as [<-|_]; [congruence|exact A]. }
  constructor; cbn [slab ids refs nstreams handles qs cs set_ids set_slab].
  - cbn [map fst]. constructor; [apply alook_None_notin; exact Hv|exact (I_slab _ H)].
  - intros id' idx'. cbn [alook]. destruct (N.eqb_spec id id') as [<-|_].
    + intros [= <-]. exists (new_rec serial id). rewrite N.eqb_refl. auto.
    + intros A. destruct (I_ids _ H id' idx' A) as (r0 & B & C). exists r0. split; [exact (K _ _ B)|exact C].
  - intros k s Hi. destruct (I_hres _ H k s Hi) as (r0 & A & B). exists r0. split; [exact (K _ _ A)|exact B].
  - intros j r0. cbn [alook]. destruct (N.eqb_spec idx j) as [<-|_]; [|apply (I_hcnt _ H)].
    intros [= <-]. cbn [new_rec r_ref r_id]. symmetry. apply hcount_zero. intros s Hi.
    destruct (I_hres _ H _ s Hi) as (r0 & A & _). cbn [fst] in A. congruence.
  - exact (I_refs _ H).
  - intros x k Hi. destruct (I_qres _ H x k Hi) as (r0 & A & B). exists r0. split; [exact (K _ _ A)|exact B].
  - intros j r0 f. cbn [alook]. destruct (N.eqb_spec idx j) as [<-|_]; [|apply (I_qcnt _ H)].
    intros [= <-]. cbn [new_rec r_fl r_id b2n]. apply qcount_zero. intros x _ Hi.
    destruct (I_qres _ H x _ Hi) as (r0 & A & _). cbn [fst] in A. congruence.
  - exact (I_cs _ H).
  - intros j r0. cbn [alook]. destruct (idx =? j); [intros [= <-]; left; reflexivity|apply (I_reason _ H)].
Qed.

(* Ptr::remove / the release in transition_after: the record has no handle and sits in no queue, so only
   the id map could still lead to its slot *)
Lemma sinv_del st k r :
  SInv st -> resolve st k = Some r -> r_ref r = 0 -> no_flags r = true ->
  (forall id, alook id (ids st) <> Some (fst k)) ->
  SInv (set_slab st (adel (fst k) (slab st))).
Proof.
  intros H Hr H0 Hn Hi.
  assert (Nh : forall s, ~ In (k, s) (handles st)).
  { apply hcount_zero. rewrite <- (ref_at st k r H Hr). exact H0. }
  assert (Nq : forall x, ~ In (x, k) (qs st)).
  { intros x. apply (proj1 (qcount_zero (flag_of x) k _)); [|reflexivity].
    rewrite (flag_at st k r _ H Hr), (no_flags_false r _ Hn). reflexivity. }
  pose proof (resolve_key st k r Hr) as Ek. apply resolve_spec in Hr. destruct Hr as (Hl & _).
  assert (K : forall k2 r2, k2 <> k -> alook (fst k2) (slab st) = Some r2 -> r_id r2 = snd k2 ->
              alook (fst k2) (adel (fst k) (slab st)) = Some r2).
  { intros k2 r2 Ne A B. rewrite alook_adel. destruct (N.eqb_spec (fst k) (fst k2)) as [E|_]; [|exact A].
    destruct Ne. rewrite <- E, Hl in A. injection A as <-. rewrite Ek, E, B. destruct k2; reflexivity. }
  assert (L : forall j r1, alook j (adel (fst k) (slab st)) = Some r1 -> alook j (slab st) = Some r1).
  { intros j r1. rewrite alook_adel. destruct (fst k =? j); [discriminate|auto]. }
  constructor; cbn [slab ids refs nstreams handles qs cs set_slab].
  - apply adel_nodup, (I_slab _ H).
  - intros id idx A. destruct (I_ids _ H id idx A) as (r0 & B & C). exists r0. split; [|exact C].
    apply (K (idx, id) r0); auto. intros E. apply (Hi id). rewrite A, <- E. reflexivity.
  - intros k2 s A. destruct (I_hres _ H k2 s A) as (r0 & B & C & D). exists r0. repeat split; auto.
    apply K; auto. intros ->. exact (Nh s A).
  - intros j r1 A. exact (I_hcnt _ H j r1 (L j r1 A)).
  - exact (I_refs _ H).
  - intros x k2 A. destruct (I_qres _ H x k2 A) as (r0 & B & C). exists r0. split; auto.
    apply K; auto. intros ->. exact (Nq x A).
  - intros j r1 f A. exact (I_qcnt _ H j r1 f (L j r1 A)).
  - exact (I_cs _ H).
  - intros j r1 A. exact (I_reason _ H j r1 (L j r1 A)).
Qed.

(* The record behind k is replaced by r' (same id and serial).  The handle multiset may change only in the copies
   of k, by as much as the ref_count does; the queue list only in the entries of k, flag by flag. *)
Lemma sinv_put st k r r' n hs' q' :
  SInv st -> resolve st k = Some r ->
  r_id r' = r_id r -> r_serial r' = r_serial r ->
  (forall h, In h hs' -> In h (handles st) \/ h = (k, r_serial r)) ->
  (forall k2, hcount k2 hs' + (if key_eqb k2 k then r_ref r else 0) =
              hcount k2 (handles st) + (if key_eqb k2 k then r_ref r' else 0)) ->
  n = nstreams st + N.of_nat (length hs') ->
  (forall x k2, In (x, k2) q' -> In (x, k2) (qs st) \/ k2 = k) ->
  (forall f k2, qcount f k2 q' + (if key_eqb k2 k then b2n (r_fl r f) else 0) =
                qcount f k2 (qs st) + (if key_eqb k2 k then b2n (r_fl r' f) else 0)) ->
  has_reason r' = true \/ r_owed r' = true ->
  SInv (mkS (aset (fst k) r' (slab st)) (ids st) n (nstreams st) hs' q' (cs st)).
Proof.
  intros H Hr Hid Hser Hh Hhc Hn Hq Hqc Hrs.
  pose proof (ref_at st k r H Hr) as Rk. pose proof (fun f => flag_at st k r f H Hr) as Fk.
  pose proof (resolve_key st k r Hr) as Ek. apply resolve_spec in Hr. destruct Hr as (Hl & Hk).
  assert (K : forall j r0, alook j (slab st) = Some r0 ->
              exists r1, alook j (aset (fst k) r' (slab st)) = Some r1 /\ r_id r1 = r_id r0 /\ r_serial r1 = r_serial r0).
  { intros j r0 A. rewrite alook_aset. destruct (N.eqb_spec (fst k) j) as [<-|_]; [|eauto].
    rewrite Hl in A. injection A as <-. eauto. }
  assert (L : forall j r1, alook j (aset (fst k) r' (slab st)) = Some r1 ->
              (j, r_id r1) = k /\ r1 = r' \/ key_eqb (j, r_id r1) k = false /\ alook j (slab st) = Some r1).
  { intros j r1. rewrite alook_aset. destruct (N.eqb_spec (fst k) j) as [<-|Ne].
    - intros [= <-]. left. rewrite Hid. auto.
    - intros A. right. split; [|exact A]. apply key_eqb_neq. intros E. apply Ne. rewrite <- E. reflexivity. }
  constructor; cbn [slab ids refs nstreams handles qs cs].
  - apply aset_nodup, (I_slab _ H).
  - intros id idx A. destruct (I_ids _ H id idx A) as (r0 & B & C). destruct (K idx r0 B) as (r1 & D & E & _).
    exists r1. split; congruence.
  - intros k2 s A. destruct (Hh _ A) as [B|[= -> ->]].
    + destruct (I_hres _ H k2 s B) as (r0 & C & D & E). destruct (K _ r0 C) as (r1 & F & G1 & G2).
      exists r1. repeat split; congruence.
    + exists r'. rewrite alook_aset, N.eqb_refl. repeat split; congruence.
  - intros j r1 A. specialize (Hhc (j, r_id r1)). destruct (L j r1 A) as [(B & ->)|(B & C)].
    + rewrite B in Hhc |- *. rewrite key_eqb_refl in Hhc. lia.
    + rewrite B in Hhc. rewrite (I_hcnt _ H j r1 C). lia.
  - exact Hn.
  - intros x k2 A. destruct (Hq _ _ A) as [B| ->].
    + destruct (I_qres _ H x k2 B) as (r0 & C & D). destruct (K _ r0 C) as (r1 & F & G & _).
      exists r1. split; congruence.
    + exists r'. rewrite alook_aset, N.eqb_refl. split; congruence.
  - intros j r1 f A. specialize (Hqc f (j, r_id r1)). destruct (L j r1 A) as [(B & ->)|(B & C)].
    + rewrite B in Hqc |- *. rewrite key_eqb_refl, Fk in Hqc. lia.
    + rewrite B in Hqc. rewrite <- (I_qcnt _ H j r1 f C). lia.
  - exact (I_cs _ H).
  - intros j r1 A. destruct (L j r1 A) as [(_ & ->)|(_ & C)]; [exact Hrs|exact (I_reason _ H j r1 C)].
Qed.

(* Queue::push / push_front *)
Lemma sinv_push st q k r l1 l2 :
  SInv st -> resolve st k = Some r -> r_fl r (flag_of q) = false -> qs st = l1 ++ l2 ->
  SInv (set_qs (put st k (with_flag r (flag_of q) true)) (l1 ++ (q, k) :: l2)).
Proof.
  intros H Hr Hf Hq. apply (sinv_put st k r _ (refs st) (handles st) _ H Hr); try reflexivity.
  - auto.
  - exact (I_refs st H).
  - intros x k2. rewrite Hq, !in_app_iff. cbn [In]. intros [A|[[= _ <-]|A]]; auto.
  - intros f k2. rewrite Hq, !qcount_app. cbn [qcount with_flag r_fl].
    destruct (key_eqb k2 k); rewrite ?andb_false_r, ?andb_true_r; [|lia].
    destruct (fid_eqb (flag_of q) f) eqn:E; [|lia]. apply fid_eqb_eq in E. subst f. rewrite Hf. cbn [b2n]. lia.
  - left. apply has_reason_iff. right. left. exists (flag_of q). cbn [with_flag r_fl]. rewrite fid_eqb_refl. reflexivity.
Qed.

Lemma sinv_pop st q k r :
  SInv st -> qfirst q (qs st) = Some k -> resolve st k = Some r ->
  SInv (set_qs (put st k (with_owed (with_flag r (flag_of q) false) true)) (qdel_first q (qs st))).
Proof.
  intros H Eq Hr.
  destruct (proj1 (proj2 (no_stale_key st H)) q k (qfirst_In _ _ _ Eq)) as (r0 & A & Hf).
  rewrite Hr in A. injection A as <-.
  apply (sinv_put st k r _ (refs st) (handles st) _ H Hr); try reflexivity.
  - auto.
  - exact (I_refs st H).
  - intros x k2 A. left. exact (qdel_first_In _ _ _ A).
  - intros f k2. rewrite (qcount_qdel_first q k (qs st) f k2 Eq). cbn [with_owed with_flag r_fl].
    destruct (key_eqb k2 k); rewrite ?andb_false_r, ?andb_true_r; [|lia].
    destruct (fid_eqb (flag_of q) f) eqn:E; [|lia]. apply fid_eqb_eq in E. subst f. rewrite Hf. cbn [b2n]. lia.
  - right. reflexivity.
Qed.

(* OpaqueStreamRef::new / clone *)
Lemma sinv_hnew st k r :
  SInv st -> resolve st k = Some r ->
  SInv (set_refs (put st k (with_ref r (r_ref r + 1))) (refs st + 1) (nstreams st) ((k, r_serial r) :: handles st)).
Proof.
  intros H Hr. apply (sinv_put st k r _ _ _ (qs st) H Hr); try reflexivity.
  - intros h [<-|A]; auto.
  - intros k2. cbn [hcount with_ref r_ref]. destruct (key_eqb k2 k); lia.
  - cbn [length]. rewrite (I_refs st H), Nat2N.inj_succ. lia.
  - auto.
  - left. apply has_reason_iff. left. cbn [with_ref r_ref]. lia.
Qed.

(* drop_stream_ref *)
Lemma sinv_hdrop st k s r :
  SInv st -> In (k, s) (handles st) -> resolve st k = Some r ->
  SInv (set_refs (put st k (with_owed (with_ref r (r_ref r - 1)) true)) (refs st - 1) (nstreams st) (hdel (k, s) (handles st))).
Proof.
  intros H Hi Hr. pose proof (ref_at st k r H Hr) as Rk. pose proof (hcount_hdel k _ _ Hi) as Ck.
  cbn [fst] in Ck. rewrite key_eqb_refl in Ck.
  apply (sinv_put st k r _ _ _ (qs st) H Hr); try reflexivity.
  - intros h A. left. exact (hdel_In _ _ _ A).
  - intros k2. rewrite (hcount_hdel k2 _ _ Hi). cbn [fst with_owed with_ref r_ref]. destruct (key_eqb k2 k); lia.
  - rewrite (I_refs st H), (hdel_length _ _ Hi), Nat2N.inj_succ. lia.
  - auto.
  - right. reflexivity.
Qed.

(* transition_after on a record that stays *)
Lemma sinv_seen st k r c :
  SInv st -> resolve st k = Some r -> c && (r_ref r =? 0) && no_flags r = false -> SInv (put st k (with_seen r c)).
Proof.
  intros H Hr E. apply (sinv_put st k r _ (refs st) (handles st) (qs st) H Hr); try reflexivity.
  - auto.
  - exact (I_refs st H).
  - auto.
  - left. rewrite has_reason_seen, E. reflexivity.
Qed.

Lemma sinv_quiesce st :
  SInv st -> existsb (fun e => r_owed (snd e) && negb (has_reason (snd e))) (slab st) = false ->
  SInv (set_slab st (map (fun e => (fst e, with_owed (snd e) false)) (slab st))).
Proof.
  intros H E. rewrite <- not_true_iff_false, existsb_exists in E.
  assert (K : forall j r0, alook j (slab st) = Some r0 ->
              alook j (map (fun e => (fst e, with_owed (snd e) false)) (slab st)) = Some (with_owed r0 false)).
  { intros j r0 A. rewrite (alook_map (fun r => with_owed r false)), A. reflexivity. }
  assert (L : forall j r1, alook j (map (fun e => (fst e, with_owed (snd e) false)) (slab st)) = Some r1 ->
              exists r0, alook j (slab st) = Some r0 /\ r1 = with_owed r0 false).
  { intros j r1. rewrite (alook_map (fun r => with_owed r false)).
    destruct (alook j (slab st)) as [r0|]; [|discriminate]. intros [= <-]. eauto. }
  constructor; cbn [slab ids refs nstreams handles qs cs set_slab].
  - rewrite map_map. exact (I_slab _ H).
  - intros id idx A. destruct (I_ids _ H id idx A) as (r0 & B & C). exists (with_owed r0 false). split; [exact (K _ _ B)|exact C].
  - intros k s A. destruct (I_hres _ H k s A) as (r0 & B & C). exists (with_owed r0 false). split; [exact (K _ _ B)|exact C].
  - intros j r1 A. destruct (L j r1 A) as (r0 & B & ->). exact (I_hcnt _ H j r0 B).
  - exact (I_refs _ H).
  - intros x k A. destruct (I_qres _ H x k A) as (r0 & B & C). exists (with_owed r0 false). split; [exact (K _ _ B)|exact C].
  - intros j r1 f A. destruct (L j r1 A) as (r0 & B & ->). exact (I_qcnt _ H j r0 f B).
  - exact (I_cs _ H).
  - intros j r1 A. destruct (L j r1 A) as (r0 & B & ->). left. change (has_reason r0 = true).
    destruct (I_reason _ H j r0 B) as [Z|Z]; [exact Z|]. destruct (has_reason r0) eqn:R; [reflexivity|].
    destruct E. exists (j, r0). split; [exact (alook_In _ _ _ B)|]. cbn [snd]. rewrite Z, R. reflexivity.
Qed.
