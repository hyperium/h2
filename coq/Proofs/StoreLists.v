(* Association-list, queue and handle-multiset lemmas for the store model. *)
From H2V Require Import Base.Tac Model.Store.
Local Open Scope N_scope.

Lemma alook_adel {A} k k' (l : list (N * A)) : alook k' (adel k l) = if k =? k' then None else alook k' l.
Proof.
  induction l as [|[x v] l IH]; cbn [alook adel]; [destruct (k =? k'); reflexivity|].
  destruct (N.eqb_spec x k) as [->|Hx].
  - rewrite IH. destruct (k =? k'); reflexivity.
  - cbn [alook]. rewrite IH. destruct (N.eqb_spec k k') as [<-|_]; [|reflexivity].
    apply N.eqb_neq in Hx. rewrite Hx. reflexivity.
Qed.

Lemma alook_aset {A} k k' (v : A) l : alook k' (aset k v l) = if k =? k' then Some v else alook k' l.
Proof. unfold aset. cbn [alook]. rewrite alook_adel. destruct (k =? k'); reflexivity. Qed.

Lemma alook_In {A} k (v : A) l : alook k l = Some v -> In (k, v) l.
Proof.
  induction l as [|[k' w] l IH]; cbn [alook]; [discriminate|].
  destruct (N.eqb_spec k' k) as [->|_]; [intros [= ->]; left; reflexivity|intros H; right; exact (IH H)].
Qed.

Lemma alook_None_notin {A} k (l : list (N * A)) : alook k l = None -> ~ In k (map fst l).
Proof.
  induction l as [|[k' w] l IH]; cbn [alook map fst]; [intros _ []|].
  destruct (N.eqb_spec k' k) as [|Hne]; [discriminate|]. intros H [H1|H1]; [exact (Hne H1)|exact (IH H H1)].
Qed.

Lemma adel_keys_incl {A} k (l : list (N * A)) x : In x (map fst (adel k l)) -> In x (map fst l).
Proof.
  induction l as [|[k' w] l IH]; cbn [adel map fst]; [intros []|].
  destruct (k' =? k); [intros H; right; exact (IH H)|]. intros [H|H]; [left; exact H|right; exact (IH H)].
Qed.

Lemma adel_nodup {A} k (l : list (N * A)) : NoDup (map fst l) -> NoDup (map fst (adel k l)).
Proof.
  induction l as [|[k' w] l IH]; cbn [adel map fst]; [intros H; exact H|].
  intros H. inversion H as [|x xs Hn Hd]; subst.
  destruct (k' =? k); [exact (IH Hd)|].
  cbn [map fst]. constructor; [|exact (IH Hd)].
  intros Hin. apply Hn. exact (adel_keys_incl _ _ _ Hin).
Qed.

Lemma aset_nodup {A} k (v : A) l : NoDup (map fst l) -> NoDup (map fst (aset k v l)).
Proof.
  intros H. unfold aset. cbn [map fst]. constructor; [|apply adel_nodup; exact H].
  apply alook_None_notin. rewrite alook_adel, N.eqb_refl. reflexivity.
Qed.

Lemma amem_alook {A} k (l : list (N * A)) : amem k l = false -> alook k l = None.
Proof. unfold amem. destruct (alook k l); [discriminate|reflexivity]. Qed.

Lemma alook_map {A B} (g : A -> B) k (l : list (N * A)) :
  alook k (map (fun e => (fst e, g (snd e))) l) = option_map g (alook k l).
Proof.
  induction l as [|[k' w] l IH]; cbn [alook map fst snd option_map]; [reflexivity|].
  destruct (k' =? k); [reflexivity|exact IH].
Qed.

Lemma key_eqb_eq a b : key_eqb a b = true <-> a = b.
Proof.
  unfold key_eqb. rewrite andb_true_iff, !N.eqb_eq. destruct a, b; cbn [fst snd].
  split; [intros (-> & ->); reflexivity|intros [= -> ->]; auto].
Qed.

Lemma key_eqb_refl a : key_eqb a a = true.
Proof. apply key_eqb_eq. reflexivity. Qed.

Lemma key_eqb_neq a b : key_eqb a b = false <-> a <> b.
Proof. rewrite <- not_true_iff_false, key_eqb_eq. reflexivity. Qed.

Lemma fid_eqb_eq a b : fid_eqb a b = true <-> a = b.
Proof. split; [destruct a, b; cbn [fid_eqb]; congruence|intros ->; destruct b; reflexivity]. Qed.

Lemma fid_eqb_refl a : fid_eqb a a = true.
Proof. apply fid_eqb_eq. reflexivity. Qed.

Lemma qid_eqb_eq a b : qid_eqb a b = true <-> a = b.
Proof.
  split.
  - destruct a, b; cbn [qid_eqb]; try congruence. intros H. apply N.eqb_eq in H. congruence.
  - intros ->. destruct b; cbn [qid_eqb]; try reflexivity. apply N.eqb_refl.
Qed.

Fixpoint hcount (k : key) (l : list (key * N)) : N :=
  match l with [] => 0 | (k', _) :: l' => (if key_eqb k k' then 1 else 0) + hcount k l' end.

Lemma h_eqb_eq a b : h_eqb a b = true <-> a = b.
Proof.
  unfold h_eqb. rewrite andb_true_iff, key_eqb_eq, N.eqb_eq. destruct a, b; cbn [fst snd].
  split; [intros (-> & ->); reflexivity|intros [= -> ->]; auto].
Qed.

Lemma hmem_In h l : hmem h l = true <-> In h l.
Proof.
  induction l as [|x l IH]; cbn [hmem In]; [split; [discriminate|intros []]|].
  rewrite orb_true_iff, IH, h_eqb_eq. split; intros [H|H]; auto.
Qed.

Lemma hcount_zero k l : hcount k l = 0 <-> forall s, ~ In (k, s) l.
Proof.
  induction l as [|[k' s'] l IH]; cbn [hcount In]; [split; auto|].
  destruct (key_eqb k k') eqn:E.
  - apply key_eqb_eq in E. subst k'. split; [lia|]. intros H. destruct (H s'). left. reflexivity.
  - apply key_eqb_neq in E. rewrite N.add_0_l, IH.
    split; intros H s; [intros [[= <- _]|A]; [exact (E eq_refl)|exact (H s A)]|intros A; apply (H s); right; exact A].
Qed.

Lemma hdel_In h x l : In x (hdel h l) -> In x l.
Proof.
  induction l as [|y l IH]; cbn [hdel]; [intros []|].
  destruct (h_eqb h y); [intros H; right; exact H|].
  intros [H|H]; [left; exact H|right; exact (IH H)].
Qed.

Lemma hcount_hdel k h l : In h l -> hcount k l = hcount k (hdel h l) + (if key_eqb k (fst h) then 1 else 0).
Proof.
  induction l as [|[k' s'] l IH]; cbn [In hdel hcount]; [intros []|].
  destruct (h_eqb h (k', s')) eqn:E.
  - intros _. apply h_eqb_eq in E. subst h. cbn [fst]. lia.
  - intros [H|H]; [subst h; rewrite (proj2 (h_eqb_eq _ _) eq_refl) in E; discriminate|].
    cbn [hcount]. rewrite (IH H). lia.
Qed.

Lemma hdel_length h l : In h l -> length l = S (length (hdel h l)).
Proof.
  induction l as [|y l IH]; cbn [In hdel]; [intros []|].
  destruct (h_eqb h y) eqn:E; [reflexivity|].
  intros [H|H]; [subst; rewrite (proj2 (h_eqb_eq _ _) eq_refl) in E; discriminate|].
  cbn [length]. rewrite (IH H). reflexivity.
Qed.

Fixpoint qcount (f : fid) (k : key) (l : list (qid * key)) : N :=
  match l with
  | [] => 0
  | (q, k') :: l' => (if fid_eqb (flag_of q) f && key_eqb k k' then 1 else 0) + qcount f k l'
  end.

Lemma qcount_app f k l1 l2 : qcount f k (l1 ++ l2) = qcount f k l1 + qcount f k l2.
Proof. induction l1 as [|[q k'] l1 IH]; cbn [app qcount]; [lia|]. rewrite IH. lia. Qed.

Lemma qcount_zero f k l : qcount f k l = 0 <-> forall q, flag_of q = f -> ~ In (q, k) l.
Proof.
  induction l as [|[q' k'] l IH]; cbn [qcount In]; [split; auto|].
  destruct (fid_eqb (flag_of q') f && key_eqb k k') eqn:E.
  - apply andb_true_iff in E. destruct E as (E1 & E2). apply fid_eqb_eq in E1. apply key_eqb_eq in E2. subst k'.
    split; [lia|]. intros H. destruct (H q' E1). left. reflexivity.
  - rewrite N.add_0_l, IH. split; intros H q Hf; [|intros A; apply (H q Hf); right; exact A].
    intros [[= -> <-]|A]; [|exact (H q Hf A)]. rewrite Hf, fid_eqb_refl, key_eqb_refl in E. discriminate.
Qed.

Lemma qfirst_In q k l : qfirst q l = Some k -> In (q, k) l.
Proof.
  induction l as [|[q' k'] l IH]; cbn [qfirst]; [discriminate|].
  destruct (qid_eqb q q') eqn:E; [|intros H; right; exact (IH H)].
  apply qid_eqb_eq in E. intros [= ->]. left. congruence.
Qed.

Lemma qlast_In q k l : qlast q l = Some k -> In (q, k) l.
Proof.
  induction l as [|[q' k'] l IH]; cbn [qlast]; [discriminate|].
  destruct (qlast q l) as [x|]; [intros [= ->]; right; exact (IH eq_refl)|].
  destruct (qid_eqb q q') eqn:E; [|discriminate]. apply qid_eqb_eq in E. intros [= ->]. left. congruence.
Qed.

Lemma qdel_first_In q x l : In x (qdel_first q l) -> In x l.
Proof.
  induction l as [|[q' k'] l IH]; cbn [qdel_first]; [intros []|].
  destruct (qid_eqb q q'); [intros H; right; exact H|].
  intros [H|H]; [left; exact H|right; exact (IH H)].
Qed.

Lemma qcount_qdel_first q k l f k2 :
  qfirst q l = Some k ->
  qcount f k2 l = qcount f k2 (qdel_first q l) + (if fid_eqb (flag_of q) f && key_eqb k2 k then 1 else 0).
Proof.
  induction l as [|[q' k'] l IH]; cbn [qfirst qdel_first qcount]; [discriminate|].
  destruct (qid_eqb q q') eqn:E.
  - intros [= ->]. apply qid_eqb_eq in E. subst. lia.
  - intros H. cbn [qcount]. rewrite (IH H). lia.
Qed.
