(* C03 from the invariant of Proofs/RecvFlowInv.v.  On runs: no panic and the connection window
   follows the wire ledger (rrun_safe).  On single steps from any state satisfying the invariant:
   window bounds, no over-advertising, the pop of an owed record, restoration.  Then the step
   without the queueing on a SETTINGS decrease (rstep_nofix) with the run on which it loses credit. *)
From H2V Require Import Base.Tac Model.RecvFlow Proofs.RecvFlowLists Proofs.RecvFlowInv Proofs.RecvFlowEff.
Local Open Scope Z_scope.

Definition rno_conn_err (outs : list (list rout)) : bool := negb (existsb rhas_conn_err outs).

Lemma rinit_inv : RInv rinit_state.
Proof.
  unfold RInv, RInvD, RInvG, rinit_state; simp_r. cbn [sum_infl map].
  repeat apply conj; try rlia; constructor.
Qed.

Definition conn_wu (l : rlabel) (o : list rout) : Z :=
  match l with
  | RConnWU => match o with [RWU _ incr] => incr | _ => 0 end
  | _ => 0
  end.

(* flow-controlled size of a DATA label that charged the connection window (a label that reports a
   connection error is excluded: the run-level theorem is about runs without one) *)
Definition conn_charged (l : rlabel) (o : list rout) : Z :=
  if rhas_conn_err o then 0
  else match l with RDataUnknown sz => sz | RData _ _ sz _ _ => sz | _ => 0 end.

Fixpoint conn_ledger (ls : list rlabel) (outs : list (list rout)) : Z :=
  match ls, outs with
  | l :: ls', o :: outs' => conn_wu l o - conn_charged l o + conn_ledger ls' outs'
  | _, _ => 0
  end.

Lemma step_ledger st l st' o :
  rstep_eff_spec st l st' o -> rhas_conn_err o = false ->
  k_win st' = k_win st + conn_wu l o - conn_charged l o.
Proof.
  intros X Hno. unfold conn_charged. rewrite Hno.
  destruct l as [key0 init|key0|sz|key0 k sz payload isrecv|key0 cap|key0 isrecv tr|key0|target
                |new_init touched| |key0 [|]]; cbn [rstep_eff_spec conn_wu] in *;
    try (destruct X as (W & _); lia).
  - destruct X as ([W|(_ & He)] & _); [lia|congruence].
  - destruct X as ([W|(_ & He)] & _); [lia|congruence].
  - destruct X as (_ & incr & -> & _ & W & _). lia.
Qed.

Theorem rrun_safe ls : forall st d,
  RInvD d st -> Forall rlabel_ok ls ->
  match rrun st ls with
  | inl (Some (st', outs)) =>
      (exists d', d <= d' /\ RInvD d' st') /\
      (rno_conn_err outs = true -> RInvD d st' /\ k_win st' = k_win st + conn_ledger ls outs)
  | inl None => True
  | inr (_, RPanic _) => False
  | inr (_, _) => True
  end.
Proof.
  induction ls as [|l ls IH]; intros st d HI Hls; cbn [rrun].
  - split; [exists d; split; [lia|exact HI]|]. intros _. split; [exact HI|cbn [conn_ledger]; lia].
  - inversion Hls as [|? ? Hl Hls']; subst.
    pose proof (rstep_spec d st l HI Hl) as X.
    destruct (rstep st l) as [st1 o1|n|n]; [|exact I|exact X].
    destruct X as (((d1 & Hd1 & HI1) & Hno) & HE).
    destruct (rhas_conn_err o1) eqn:Ec.
    + specialize (IH st1 d1 HI1 Hls').
      destruct (rrun st1 ls) as [[[st2 os]|]|[k r]]; [|exact I|destruct r; exact IH].
      destruct IH as ((d2 & Hd2 & HI2) & _). split; [exists d2; split; [lia|exact HI2]|].
      unfold rno_conn_err. cbn [existsb]. rewrite Ec. discriminate.
    + specialize (IH st1 d (Hno eq_refl) Hls').
      destruct (rrun st1 ls) as [[[st2 os]|]|[k r]]; [|exact I|destruct r; exact IH].
      destruct IH as (A & B). split; [exact A|].
      unfold rno_conn_err in *. cbn [existsb conn_ledger]. rewrite Ec. intros Hn. destruct (B Hn) as (HI2 & W2).
      split; [exact HI2|]. pose proof (step_ledger _ _ _ _ HE Ec). lia.
Qed.

Theorem reach_inv ls st outs :
  Forall rlabel_ok ls -> rrun rinit_state ls = inl (Some (st, outs)) ->
  (exists d, RInvD d st) /\ (rno_conn_err outs = true -> RInv st).
Proof.
  intros Hls Hrun.
  pose proof (rrun_safe ls _ 0 rinit_inv Hls) as X. rewrite Hrun in X.
  destruct X as ((d & _ & HI) & Hno). split; [exists d; exact HI|apply Hno].
Qed.

Theorem C03_no_panic ls k n :
  Forall rlabel_ok ls -> rrun rinit_state ls <> inr (k, RPanic n).
Proof.
  intros Hls E.
  pose proof (rrun_safe ls _ 0 rinit_inv Hls) as X. rewrite E in X. exact X.
Qed.

Lemma inv_conserved d st :
  RInvD d st ->
  k_avail st + k_infl st = k_target st /\ 0 <= k_target st <= RMAXW /\
  k_infl st = sum_infl (k_strs st) + d /\
  NoDup (map r_id (k_strs st)) /\
  forall s, In s (k_strs st) ->
    0 <= r_infl s /\ r_win s <= r_avail s /\ r_avail s + r_infl s <= r_base s /\
    (r_isrecv s = true -> r_done s = false -> r_unl s = false -> r_avail s + r_infl s = r_base s) /\
    r_base s <= RMAXW /\ (r_unl s = false -> r_base s <= k_init st).
Proof.
  intros HI. pose proof HI as (C1 & C2 & C3 & C4 & C5 & C6 & C7 & C8 & C9 & C10 & C11 & C12).
  repeat apply conj; try assumption. intros s HIn.
  destruct (RInvD_In _ _ _ HI HIn) as ((K1 & K2 & K3 & K4 & K5 & K6 & K7) & KL).
  repeat apply conj; try assumption. intros A. apply (KL A).
Qed.

Theorem window_bounds d st s :
  RInvD d st -> In s (k_strs st) ->
  r_win s <= r_avail s /\ r_avail s <= r_base s /\ r_base s <= RMAXW /\
  (r_unl s = false -> r_base s <= k_init st /\ k_init st <= RMAXW).
Proof.
  intros HI HIn. destruct (RInvD_In _ _ _ HI HIn) as ((K1 & K2 & K3 & K4 & K5 & K6 & K7) & KL).
  split; [exact K2|]. split; [lia|]. split; [exact K5|]. intros A. destruct (KL A). split; [assumption|rlia].
Qed.

(* - every WINDOW_UPDATE in the outputs is the single output of RConnWU or of RStreamWUPop key true,
     and right after it the advertised window equals available <= configured size <= 2^31-1;
   - the connection window does not rise at any other label;
   - a stream window does not rise at any label other than its own WINDOW_UPDATE emission and a
     SETTINGS_INITIAL_WINDOW_SIZE increase. *)
Definition never_over (st : rstate) (l : rlabel) (st' : rstate) (o : list rout) : Prop :=
  (forall key incr, In (RWU key incr) o ->
     (l = RConnWU /\ key = 0%N /\ conn_emission st st' o incr) \/
     (l = RStreamWUPop key true /\ stream_emission st st' o key incr)) /\
  (l <> RConnWU -> k_win st' <= k_win st) /\
  (forall key s s', rfind key (k_strs st) = Some s -> rfind key (k_strs st') = Some s' ->
     ~ match l with
       | RStreamWUPop k true => k = key
       | RApplySettings new_init _ => k_init st < new_init
       | _ => False
       end -> r_win s' <= r_win s).

Lemma rquiet_never_over st l st' o :
  k_win st' <= k_win st -> win_le st st' -> no_wu o -> never_over st l st' o.
Proof.
  intros W L N. split; [intros key incr HIn; destruct (no_wu_In _ _ _ N HIn)|].
  split; [intros _; exact W|]. intros key s s' F F' _. exact (L _ _ _ F F').
Qed.

Theorem never_over_advertised d st l st' o :
  RInvD d st -> rlabel_ok l -> rstep st l = ROk st' o -> never_over st l st' o.
Proof.
  intros HI Hl E. pose proof (rstep_eff d st l st' o HI Hl E) as X.
  destruct l as [key0 init|key0|sz|key0 k sz payload isrecv|key0 cap|key0 isrecv tr|key0|target
                |new_init touched| |key0 [|]]; cbn [rstep_eff_spec rlabel_ok] in X, Hl;
    try (destruct X as (W & L & N); apply rquiet_never_over; [lia|exact (win_le_s_weak _ _ L)|exact N]).
  - destruct X as (W & L & N). apply rquiet_never_over; [lia|exact L|exact N].
  - destruct X as (W & L & N). split; [intros key incr HIn; destruct (no_wu_In _ _ _ N HIn)|].
    split; [lia|]. intros key s s' F F' Hnr.
    exact (win_le_s_weak _ _ (L ltac:(lia)) _ _ _ F F').
  - destruct X as (Hs & incr0 & Hem). pose proof Hem as (Ho & _). split; [|split].
    + intros key incr HIn. rewrite Ho in HIn. destruct HIn as [[= <- <-]|[]]. left. auto.
    + intros Hne. now destruct Hne.
    + intros key s s' F F' _. rewrite Hs, F in F'. injection F' as <-. lia.
  - destruct X as (W & Hoth & Hem). split; [|split].
    + intros key incr HIn. right. destruct Hem as [->|(incr0 & Hem)]; [destruct HIn|].
      pose proof Hem as (Ho & _). rewrite Ho in HIn. destruct HIn as [[= <- <-]|[]]. auto.
    + lia.
    + intros key s s' F F' Hnr.
      rewrite (Hoth key), F in F' by congruence. injection F' as <-. lia.
Qed.

Lemma pop_emits d st s :
  RInvD d st -> In s (k_strs st) -> unclaimed (r_win s) (r_avail s) <> None ->
  exists st' s',
    rstep st (RStreamWUPop (r_id s) true) = ROk st' [RWU (r_id s) (r_avail s - r_win s)] /\
    rfind (r_id s) (k_strs st') = Some s' /\
    r_win s' = r_avail s /\ r_avail s' = r_avail s /\ r_base s' = r_base s /\ r_infl s' = r_infl s /\
    r_pend s' = false.
Proof.
  intros HI HIn Hu. destruct (RInvD_In _ _ _ HI HIn) as ((K1 & K2 & K3 & K4 & K5 & K6 & K7) & _).
  pose proof HI as (_ & _ & _ & _ & _ & _ & _ & _ & _ & _ & ND & _).
  pose proof (In_rfind _ _ ND HIn) as F. cbn [rstep negb]. rewrite F.
  destruct (unclaimed (r_win s) (r_avail s)) as [incr|] eqn:EU; [|congruence].
  destruct (wu_guard _ _ _ EU) as (-> & Hw & _); try lia.
  replace (r_avail s - r_win s) with incr by lia.
  eexists; eexists. split; [reflexivity|].
  split; [exact (rfind_rupd_same (mkR _ _ _ _ _ _ _ _ _) _ s F)|].
  simp_r. repeat apply conj; try reflexivity; lia.
Qed.

(* nothing, or less than half a window, is withheld *)
Definition rsettled (win size : Z) : Prop :=
  size <= win \/ (win < size /\ size - win < Z.quot win 2).

(* a connection with nothing in flight and a stream whose application holds the handle and has
   released everything it was given have their full configured window available; the advertised
   window either already is within half a window of it (h2 batches WINDOW_UPDATEs) or its
   WINDOW_UPDATE is due / queued and brings it to exactly the configured size *)
Definition restores (st : rstate) : Prop :=
  (k_infl st = 0 ->
     k_avail st = k_target st /\
     ((unclaimed (k_win st) (k_avail st) = None /\ rsettled (k_win st) (k_target st)) \/
      exists st', rstep st RConnWU = ROk st' [RWU 0 (k_target st - k_win st)] /\
                  k_win st' = k_target st /\ k_avail st' = k_target st)) /\
  (forall s, In s (k_strs st) ->
     r_isrecv s = true -> r_done s = false -> r_unl s = false -> r_infl s = 0 ->
     r_avail s = r_base s /\
     ((unclaimed (r_win s) (r_avail s) = None /\ r_win s <= r_base s /\ rsettled (r_win s) (r_base s)) \/
      (r_pend s = true /\
       exists st' s', rstep st (RStreamWUPop (r_id s) true) = ROk st' [RWU (r_id s) (r_base s - r_win s)] /\
                      rfind (r_id s) (k_strs st') = Some s' /\
                      r_win s' = r_base s /\ r_avail s' = r_base s /\ r_base s' = r_base s))).

Theorem restores_inv d st : RInvD d st -> restores st.
Proof.
  intros HI. split.
  - intros H0. assert (Ha : k_avail st = k_target st) by rlia. split; [exact Ha|].
    destruct (unclaimed (k_win st) (k_avail st)) as [u|] eqn:EU.
    + right. cbn [rstep]. rewrite EU.
      destruct (wu_guard _ _ _ EU) as (-> & Hw & _); try rlia.
      replace (k_target st - k_win st) with u by lia.
      eexists. split; [reflexivity|]. simp_r. lia.
    + left. split; [reflexivity|]. apply unclaimed_none in EU. unfold rsettled. lia.
  - intros s HIn A1 A2 A3 A4.
    destruct (RInvD_In _ _ _ HI HIn) as ((K1 & K2 & K3 & K4 & K5 & K6 & K7) & KL).
    specialize (K4 A1 A2 A3). assert (Ha : r_avail s = r_base s) by lia. split; [exact Ha|].
    destruct (unclaimed (r_win s) (r_avail s)) as [u|] eqn:EU.
    + right. assert (Hu : unclaimed (r_win s) (r_avail s) <> None) by congruence.
      split; [exact (K7 A1 A2 A3 A4 Hu)|].
      destruct (pop_emits d st s HI HIn Hu) as (st' & s' & E & F' & W & A & B & _).
      exists st', s'. rewrite Ha in E, W, A. repeat apply conj; assumption.
    + left. split; [reflexivity|]. apply unclaimed_none in EU. unfold rsettled. lia.
Qed.

(* the defect repaired by 6962309 of /repo: without queueing on a SETTINGS decrease, credit is lost *)

Fixpoint settings_streams_nofix (st : rstate) (delta : Z) (touched : list N) : routcome :=
  match touched with
  | [] => ROk st []
  | key :: t' =>
    match rfind key (k_strs st) with
    | None => RStuck 2
    | Some s =>
      if r_unl s then RStuck 3 else
      let w := r_win s + delta in
      let a := r_avail s + delta in
      if negb (in_i32r w) || negb (in_i32r a) || (RMAXW <? w) then ROk st [RConnErr]
      else
      settings_streams_nofix
        (kput st (mkR (r_id s) w a (r_infl s) (r_pend s) (r_isrecv s) (r_base s + delta) (r_done s) (r_unl s)))
        delta t'
    end
  end.

Definition rstep_nofix (st : rstate) (l : rlabel) : routcome :=
  match l with
  | RApplySettings new_init touched =>
    if negb (nodup_keysr touched) then RStuck 22 else
    let delta := new_init - k_init st in
    let st0 := mkK (k_win st) (k_avail st) (k_infl st) new_init (k_target st) (k_strs st) in
    if delta =? 0 then (match touched with [] => ROk st0 [] | _ => RStuck 23 end)
    else match settings_streams_nofix st0 delta touched with
         | ROk st1 o =>
           if rhas_conn_err o then ROk st1 o
           else ROk (kset_strs st1 (mark_done touched (k_strs st1))) o
         | x => x
         end
  | _ => rstep st l
  end.

Fixpoint rrun_nofix (st : rstate) (ls : list rlabel) : option rstate :=
  match ls with
  | [] => Some st
  | l :: ls' =>
    match rstep_nofix st l with
    | ROk st1 o => if rhas_conn_err o then None else rrun_nofix st1 ls'
    | _ => None
    end
  end.

Lemma settings_streams_nofix_same delta touched : forall st,
  0 <= delta -> settings_streams_nofix st delta touched = settings_streams st delta touched.
Proof.
  induction touched as [|key t IH]; intros st Hd; cbn [settings_streams_nofix settings_streams]; [reflexivity|].
  destruct (rfind key (k_strs st)) as [s|]; [|reflexivity].
  destruct (r_unl s); [reflexivity|]. cbv zeta.
  destruct (negb (in_i32r (r_win s + delta)) || negb (in_i32r (r_avail s + delta)) || (RMAXW <? r_win s + delta));
    [reflexivity|].
  destruct (delta <? 0) eqn:E; [exfalso; lia|]. apply IH. exact Hd.
Qed.

(* corpus/conn/f1_window_stall.json *)
Definition f1_labels : list rlabel :=
  [ RNew 1 65535; RData 1 DCharged 20000 20000 true; RRelease 1 20000; RApplySettings 10000 [1%N] ].

Definition f1_stalled : rstream := mkR 1 (-10000) 10000 0 false true 10000 false false.

Theorem C03_fix_needed :
  exists ls st s, Forall rlabel_ok ls /\ rrun_nofix rinit_state ls = Some st /\ In s (k_strs st) /\
    r_isrecv s = true /\ r_done s = false /\ r_unl s = false /\ r_infl s = 0 /\
    unclaimed (r_win s) (r_avail s) = Some (r_base s - r_win s) /\ r_win s < 0 /\ r_pend s = false /\
    ~ rQ s.
Proof.
  exists f1_labels, (mkK 45535 65535 0 10000 65535 [f1_stalled]), f1_stalled.
  split; [repeat (constructor; [cbn [rlabel_ok]; unfold RMAXW; try lia; exact I|]); constructor|].
  split; [vm_compute; reflexivity|]. split; [left; reflexivity|].
  repeat (split; [vm_compute; reflexivity|]).
  intros H. discriminate (H eq_refl eq_refl eq_refl eq_refl). vm_compute. discriminate.
Qed.

(* with the repair the same history queues the stream, and its WINDOW_UPDATE restores the window *)
Example f1_fixed :
  match rrun rinit_state (f1_labels ++ [RStreamWUPop 1 true]) with
  | inl (Some (st, outs)) =>
      rno_conn_err outs = true /\ concat outs = [RWU 1 20000] /\
      rfind 1%N (k_strs st) = Some (mkR 1 10000 10000 0 false true 10000 false false)
  | _ => False
  end.
Proof. vm_compute. repeat split; reflexivity. Qed.

(* non-vacuity: a concrete history (padding, releases, both kinds of WINDOW_UPDATE, DATA on an unknown
   stream, a SETTINGS decrease and increase, a target change, a dropped handle, a closed stream) runs
   to completion without connection error and agrees with the wire ledger *)
Definition rdemo_prefix : list rlabel :=
  [ RNew 1 65535; RNew 2 65535; RData 1 DCharged 30000 29000 true; RData 2 DCharged 10000 10000 true;
    RRelease 1 29000 ].

Definition rdemo_labels : list rlabel :=
  rdemo_prefix ++
  [ RStreamWUPop 1 true; RConnWU; RDataUnknown 500; RApplySettings 20000 [1%N; 2%N];
    RSetTarget 100000; RConnWU; RApplySettings 30000 [1%N; 2%N]; RData 2 DStreamErr 100 100 true;
    RClear 2 false 10000; RData 2 DNoRecv 50 50 false; RReleaseClosed 1; RRemove 2 ].

Example rdemo_labels_ok : Forall rlabel_ok rdemo_labels.
Proof.
  unfold rdemo_labels, rdemo_prefix. cbn [app].
  repeat (constructor; [cbn [rlabel_ok]; unfold RMAXW; try lia; exact I|]). constructor.
Qed.

Example rdemo_runs :
  match rrun rinit_state rdemo_labels with
  | inl (Some (st, outs)) =>
      rno_conn_err outs = true /\
      concat outs = [RWU 1 30000; RWU 0 30000; RWU 0 34965; RStreamErr 2] /\
      k_win st = RDEFAULT + conn_ledger rdemo_labels outs /\
      k_infl st = 0 /\ k_avail st = 100000
  | _ => False
  end.
Proof. vm_compute. repeat split; reflexivity. Qed.

(* the hypotheses of the restoration theorem are satisfiable with the record queued: after the
   prefix stream 1 is owed 30000 >= half of 35535 (rdemo_labels goes on with its pop, the RWU 1 30000
   of rdemo_runs) *)
Example rdemo_restores_queued :
  match rrun rinit_state rdemo_prefix with
  | inl (Some (st, outs)) =>
      exists s, In s (k_strs st) /\ r_id s = 1%N /\ r_isrecv s = true /\ r_done s = false /\
                r_unl s = false /\ r_infl s = 0 /\ r_pend s = true /\
                unclaimed (r_win s) (r_avail s) = Some 30000
  | _ => False
  end.
Proof. vm_compute. eexists. split; [right; left; reflexivity|]. repeat split; reflexivity. Qed.
