(* Huffman coding of HPACK (part of property C11): ENCODE_TABLE is the code of RFC 7541 Appendix B, the reference
   decoder decides [huff_valid], the model of h2's table-driven decoder computes the reference decoder on every byte
   string, the model of h2's encoder emits the code words and at most 7 one-bits.  Evaluation is used on the tables
   only (code rows and their pairs, the cells and sub-table paths of DECODE_TABLE). *)
From H2V Require Import Base.Tac Base.Bytes.
From H2V Require Import Gen.HuffTables Ref.Rfc7541HuffTable Ref.Rfc7541Huff Model.Huffman.
Local Open Scope N_scope.

Lemma length_nonnil {A} (l : list A) : (0 < length l)%nat -> l <> [].
Proof. destruct l; [cbn [length]; lia | discriminate]. Qed.

Lemma bits_eqb_eq : forall a b, bits_eqb a b = true <-> a = b.
Proof.
  induction a as [|x a IH]; intros [|y b]; cbn [bits_eqb]; try (split; congruence).
  rewrite andb_true_iff, IH, Bool.eqb_true_iff. split.
  - intros [-> ->]. reflexivity.
  - intros H. inversion H. auto.
Qed.

Lemma bits_eqb_refl a : bits_eqb a a = true.
Proof. apply bits_eqb_eq; reflexivity. Qed.

Lemma all_ones_repeat : forall l, all_ones l = true -> l = repeat true (length l).
Proof.
  induction l as [|x l IH]; cbn [all_ones forallb length repeat]; intros H.
  - reflexivity.
  - apply andb_true_iff in H as [-> H]. f_equal. apply IH, H.
Qed.

Lemma pow2_nz n : 2 ^ n <> 0.
Proof. apply N.pow_nonzero; lia. Qed.

Lemma lor_add_disjoint a b k : a mod 2 ^ k = 0 -> b < 2 ^ k -> N.lor a b = a + b.
Proof.
  intros Ha Hb.
  assert (Hland : N.land a b = 0).
  { apply N.bits_inj. intros i. rewrite N.land_spec, N.bits_0.
    destruct (N.ltb_spec i k) as [Hi|Hi].
    - rewrite <- (N.mod_pow2_bits_low a k i Hi), Ha, N.bits_0. reflexivity.
    - replace b with (b mod 2 ^ k) by (apply N.mod_small; exact Hb).
      rewrite N.mod_pow2_bits_high by exact Hi. apply andb_false_r. }
  rewrite N.add_nocarry_lxor by exact Hland. symmetry. apply N.lxor_lor, Hland.
Qed.

Lemma bitsN_length : forall n v, length (bitsN n v) = n.
Proof. induction n as [|n IH]; intros v; cbn [bitsN length]; [|rewrite IH]; reflexivity. Qed.

Lemma bitsN_ext : forall n v w,
  (forall i, i < N.of_nat n -> N.testbit v i = N.testbit w i) -> bitsN n v = bitsN n w.
Proof.
  induction n as [|n IH]; intros v w H; cbn [bitsN].
  - reflexivity.
  - f_equal.
    + apply H. lia.
    + apply IH. intros i Hi. apply H. lia.
Qed.

Lemma bitsN_mod n v k : N.of_nat n <= k -> bitsN n (v mod 2 ^ k) = bitsN n v.
Proof.
  intros H. apply bitsN_ext. intros i Hi. apply N.mod_pow2_bits_low. lia.
Qed.

Lemma bitsN_skipn n u v :
  skipn (N.to_nat u) (bitsN (N.to_nat n) v) = bitsN (N.to_nat (n - u)) v.
Proof.
  rewrite N2Nat.inj_sub. generalize (N.to_nat u). induction (N.to_nat n) as [|m IH]; intros k.
  - destruct k; reflexivity.
  - destruct k as [|k]; [reflexivity|]. cbn [bitsN skipn Nat.sub]. apply IH.
Qed.

Lemma bitsN_all_ones : forall n v,
  all_ones (bitsN n v) = true <-> (forall i, i < N.of_nat n -> N.testbit v i = true).
Proof.
  unfold all_ones. induction n as [|n IH]; intros v; cbn [bitsN forallb].
  - split; [intros _ i Hi; lia | reflexivity].
  - rewrite andb_true_iff, IH. split.
    + intros [H0 H] i Hi. destruct (N.eq_dec i (N.of_nat n)) as [->|Hne]; [exact H0 | apply H; lia].
    + intros H. split; [|intros i Hi]; apply H; lia.
Qed.

Lemma bitsN_split (a b : N) v :
  bitsN (N.to_nat (a + b)) v = bitsN (N.to_nat a) (v / 2 ^ b) ++ bitsN (N.to_nat b) v.
Proof.
  rewrite N2Nat.inj_add. induction (N.to_nat a) as [|n IH]; [reflexivity|].
  cbn [Nat.add bitsN app]. rewrite IH, N.div_pow2_bits. do 2 f_equal. lia.
Qed.

(* the top 8 of [bits] bits, as the decoder and the flush loop of the encoder take them *)
Lemma bitsN_lookup bits acc :
  8 <= bits ->
  bitsN (N.to_nat bits) acc =
    bitsN 8 ((acc / 2 ^ (bits - 8)) mod 256) ++ bitsN (N.to_nat (bits - 8)) acc.
Proof.
  intros H. replace bits with (8 + (bits - 8)) at 1 by lia.
  rewrite bitsN_split. f_equal.
  change 256 with (2 ^ 8). change (N.to_nat 8) with 8%nat.
  rewrite bitsN_mod by (cbn; lia). reflexivity.
Qed.

Lemma bitsN_push a n q c :
  c < 2 ^ n ->
  bitsN (N.to_nat (a + n)) (q * 2 ^ n + c) = bitsN (N.to_nat a) q ++ bitsN (N.to_nat n) c.
Proof.
  intros Hc. rewrite bitsN_split. f_equal.
  - f_equal. rewrite N.div_add_l by apply pow2_nz. rewrite (N.div_small c) by exact Hc.
    apply N.add_0_r.
  - rewrite <- (bitsN_mod _ _ n) by lia. f_equal.
    rewrite N.add_comm, N.mod_add by apply pow2_nz. apply N.mod_small, Hc.
Qed.

Lemma bits_of_bytes_app : forall a b, bits_of_bytes (a ++ b) = bits_of_bytes a ++ bits_of_bytes b.
Proof.
  induction a as [|x a IH]; intros b; cbn [bits_of_bytes app].
  - reflexivity.
  - rewrite IH, app_assoc. reflexivity.
Qed.

(* breaks when somebody edits ENCODE_TABLE in table.rs *)
Lemma gen_enc_table_is_rfc : enc_table = rfc7541_huffman.
Proof. vm_compute. reflexivity. Qed.

Lemma rfc_code_count : length rfc_code_bits = 257%nat.
Proof. vm_compute. reflexivity. Qed.

Definition rfc_entry_ok (e : N * N) : bool :=
  (5 <=? fst e) && (fst e <=? 30) && (snd e <? 2 ^ fst e).

Lemma rfc_entries_ok : forallb rfc_entry_ok rfc7541_huffman = true.
Proof. vm_compute. reflexivity. Qed.

Lemma rfc_eos_is_30_ones : code_bits EOS = repeat true 30.
Proof. vm_compute. reflexivity. Qed.

(* Kraft sum: the sum over all 257 symbols of 2^(30 - length).  For a prefix-free code it is 2^30
   exactly when the code is complete (every infinite bit string starts with a code word); only the
   sum is checked here, completeness is not derived from it. *)
Definition kraft_sum (t : list (N * N)) : N :=
  fold_right (fun e a => 2 ^ (30 - fst e) + a) 0 t.

Lemma rfc_kraft_complete : kraft_sum rfc7541_huffman = 2 ^ 30.
Proof. vm_compute. reflexivity. Qed.

Lemma code_bits_nth s : s < 257 -> nth_error rfc_code_bits (N.to_nat s) = Some (code_bits s).
Proof. intros Hs. apply nth_error_nth'. rewrite rfc_code_count. lia. Qed.

Lemma nth_code_bits i c :
  nth_error rfc_code_bits i = Some c -> N.of_nat i < 257 /\ code_bits (N.of_nat i) = c.
Proof.
  intros Hn. split.
  - assert (i < 257)%nat by (rewrite <- rfc_code_count; apply nth_error_Some; congruence). lia.
  - unfold code_bits. rewrite Nat2N.id. apply nth_error_nth, Hn.
Qed.

Lemma code_entry s :
  s < 257 ->
  exists n c, nth_error rfc7541_huffman (N.to_nat s) = Some (n, c) /\
              5 <= n <= 30 /\ c < 2 ^ n /\ code_bits s = bitsN (N.to_nat n) c.
Proof.
  intros Hs. pose proof (code_bits_nth s Hs) as E.
  unfold rfc_code_bits in E. rewrite nth_error_map in E.
  destruct (nth_error rfc7541_huffman (N.to_nat s)) as [[n c]|] eqn:Hn; [|discriminate].
  injection E as E. exists n, c. split; [reflexivity|].
  pose proof rfc_entries_ok as S. rewrite forallb_forall in S.
  specialize (S _ (nth_error_In _ _ Hn)). unfold rfc_entry_ok in S. cbn [fst snd] in S.
  split; [lia|]. split; [lia|]. symmetry. exact E.
Qed.

Lemma code_bits_length s : s < 257 -> (5 <= length (code_bits s) <= 30)%nat.
Proof.
  intros Hs. destruct (code_entry s Hs) as [n [c [_ [Hn [_ ->]]]]]. rewrite bitsN_length. lia.
Qed.

(* prefix-freeness: no code word is a prefix of another one.  Checked on all pairs of rows, each
   pair once: [comparable a b] says that one of [a], [b] is a prefix of the other. *)
Fixpoint comparable (a b : list bool) : bool :=
  match a, b with
  | x :: a', y :: b' => Bool.eqb x y && comparable a' b'
  | _, _ => true
  end.

Lemma comparable_app : forall a l, comparable a (a ++ l) = true /\ comparable (a ++ l) a = true.
Proof.
  induction a as [|x a IH]; intros l; cbn [comparable app].
  - destruct l; auto.
  - rewrite Bool.eqb_reflx. exact (IH l).
Qed.

Fixpoint prefix_free (l : list (list bool)) : bool :=
  match l with
  | [] => true
  | c :: l' => forallb (fun d => negb (comparable c d)) l' && prefix_free l'
  end.

Lemma prefix_free_nth : forall l i j a r,
  prefix_free l = true -> nth_error l i = Some a -> nth_error l j = Some (a ++ r) -> i = j.
Proof.
  induction l as [|c l IH]; intros i j a r H Hi Hj; [destruct i; discriminate|].
  cbn [prefix_free] in H. apply andb_true_iff in H as [Hc Hl]. rewrite forallb_forall in Hc.
  destruct i as [|i], j as [|j]; cbn [nth_error] in Hi, Hj.
  - reflexivity.
  - injection Hi as ->. apply nth_error_In, Hc in Hj.
    rewrite (proj1 (comparable_app a r)) in Hj. discriminate.
  - injection Hj as ->. apply nth_error_In, Hc in Hi.
    rewrite (proj2 (comparable_app a r)) in Hi. discriminate.
  - f_equal. exact (IH i j a r Hl Hi Hj).
Qed.

Lemma rfc_prefix_free_sweep : prefix_free rfc_code_bits = true.
Proof. vm_compute. reflexivity. Qed.

Lemma rfc_prefix_free s1 s2 l :
  s1 < 257 -> s2 < 257 -> code_bits s1 ++ l = code_bits s2 -> s1 = s2.
Proof.
  intros H1 H2 Heq. apply N2Nat.inj.
  apply (prefix_free_nth rfc_code_bits _ _ (code_bits s1) l rfc_prefix_free_sweep);
    [|rewrite Heq]; apply code_bits_nth; assumption.
Qed.

Lemma find_code_spec path :
  match find_code path with
  | Some s => s < 257 /\ code_bits s = path
  | None => ~ In path rfc_code_bits
  end.
Proof.
  assert (G : forall codes k,
            match find_code_from k codes path with
            | Some s => exists i, s = k + N.of_nat i /\ nth_error codes i = Some path
            | None => ~ In path codes
            end).
  { induction codes as [|c codes IH]; intros k; cbn [find_code_from In]; [tauto|].
    destruct (bits_eqb c path) eqn:E.
    - apply bits_eqb_eq in E. exists 0%nat. split; [lia | cbn; congruence].
    - specialize (IH (k + 1)). destruct (find_code_from (k + 1) codes path).
      + destruct IH as [i [-> Hn]]. exists (S i). split; [lia | exact Hn].
      + intros [->|Hin]; [rewrite bits_eqb_refl in E; discriminate | exact (IH Hin)]. }
  specialize (G rfc_code_bits 0). unfold find_code.
  destruct (find_code_from 0 rfc_code_bits path); [|exact G].
  destruct G as [i [-> Hn]]. exact (nth_code_bits i path Hn).
Qed.

Lemma find_code_code_bits s : s < 257 -> find_code (code_bits s) = Some s.
Proof.
  intros Hs. pose proof (find_code_spec (code_bits s)) as F.
  destruct (find_code (code_bits s)) as [s'|].
  - destruct F as [Hs' E]. f_equal.
    apply (rfc_prefix_free s' s []); [assumption..|]. rewrite app_nil_r. exact E.
  - destruct F. exact (nth_error_In _ _ (code_bits_nth s Hs)).
Qed.

Lemma find_code_proper_prefix path rest s :
  s < 257 -> path ++ rest = code_bits s -> rest <> [] -> find_code path = None.
Proof.
  intros Hs Heq Hne. pose proof (find_code_spec path) as F.
  destruct (find_code path) as [s'|]; [|reflexivity].
  destruct F as [Hs' Hc]. subst path.
  pose proof (rfc_prefix_free s' s rest Hs' Hs Heq) as ->.
  destruct Hne. apply (app_inv_head (code_bits s)). rewrite app_nil_r. exact Heq.
Qed.

Lemma ref_walk_sound : forall bs path syms,
  ref_walk path bs = Some syms -> huff_valid (path ++ bs) syms.
Proof.
  induction bs as [|b bs IH]; intros path syms H; cbn [ref_walk] in H.
  - destruct ((length path <? 8)%nat && all_ones path) eqn:E; [|discriminate].
    injection H as <-. apply andb_true_iff in E as [E1 E2]. apply Nat.ltb_lt in E1.
    split; [constructor|]. exists path. rewrite app_nil_r. auto.
  - replace (path ++ b :: bs) with ((path ++ [b]) ++ bs) by (rewrite <- app_assoc; reflexivity).
    pose proof (find_code_spec (path ++ [b])) as F.
    destruct (find_code (path ++ [b])) as [s|]; [|exact (IH _ _ H)].
    destruct (s =? EOS) eqn:E; [discriminate|].
    destruct (ref_walk [] bs) as [rest|] eqn:R; [|discriminate].
    injection H as <-. destruct F as [Hs <-]. apply N.eqb_neq in E. unfold EOS in E.
    destruct (IH [] rest R) as [Hall [pad [Heq Hpad]]].
    split; [constructor; [lia | exact Hall]|].
    exists pad. split; [|exact Hpad]. cbn [map concat]. rewrite <- app_assoc. f_equal. exact Heq.
Qed.

Lemma ref_walk_inside : forall w path s rest tl,
  s < 257 -> path ++ w ++ rest = code_bits s -> rest <> [] ->
  ref_walk path (w ++ tl) = ref_walk (path ++ w) tl.
Proof.
  induction w as [|b w IH]; intros path s rest tl Hs Heq Hne; cbn [app ref_walk].
  - rewrite app_nil_r. reflexivity.
  - assert (Heq' : (path ++ [b]) ++ w ++ rest = code_bits s) by (rewrite <- app_assoc; exact Heq).
    rewrite (find_code_proper_prefix _ _ s Hs Heq') by (destruct w; [exact Hne | discriminate]).
    rewrite (IH _ s rest tl Hs Heq' Hne), <- app_assoc. reflexivity.
Qed.

Lemma ref_walk_code_end rest path s tl :
  s < 257 -> path ++ rest = code_bits s -> rest <> [] ->
  ref_walk path (rest ++ tl) =
    if s =? EOS then None else option_map (cons s) (ref_walk [] tl).
Proof.
  intros Hs Heq Hne. destruct (exists_last Hne) as [w [b ->]].
  rewrite <- app_assoc, (ref_walk_inside w path s [b] _ Hs Heq) by discriminate.
  cbn [app ref_walk]. rewrite <- app_assoc, Heq, (find_code_code_bits s Hs). reflexivity.
Qed.

Lemma ref_walk_code s tl :
  s < 257 ->
  ref_walk [] (code_bits s ++ tl) = if s =? EOS then None else option_map (cons s) (ref_walk [] tl).
Proof.
  intros Hs. apply ref_walk_code_end; [exact Hs | reflexivity |].
  apply length_nonnil. pose proof (code_bits_length s Hs). lia.
Qed.

Lemma octet_not_eos s : s < 256 -> (s =? EOS) = false.
Proof. intros H. apply N.eqb_neq. unfold EOS. lia. Qed.

Lemma ref_walk_codes : forall pre tl,
  Forall (fun s => s < 256) pre ->
  ref_walk [] (concat (map code_bits pre) ++ tl) = option_map (app pre) (ref_walk [] tl).
Proof.
  induction pre as [|s pre IH]; intros tl Hall; cbn [map concat app].
  - destruct (ref_walk [] tl); reflexivity.
  - inversion Hall as [|? ? Hs Hall']; subst.
    rewrite <- app_assoc, ref_walk_code, (octet_not_eos s Hs), IH by (lia || exact Hall').
    destruct (ref_walk [] tl); reflexivity.
Qed.

(* a run of ones shorter than EOS stays inside the code word of EOS *)
Lemma ref_walk_ones pad :
  all_ones pad = true -> (length pad < 30)%nat ->
  ref_walk [] pad = if (length pad <? 8)%nat then Some [] else None.
Proof.
  intros Hones Hlen. pose proof (all_ones_repeat _ Hones) as E.
  rewrite <- (app_nil_r pad) at 1.
  rewrite (ref_walk_inside pad [] EOS (repeat true (30 - length pad))).
  - cbn [ref_walk app]. rewrite Hones, andb_true_r. reflexivity.
  - reflexivity.
  - cbn [app]. rewrite E at 1. rewrite <- repeat_app, rfc_eos_is_30_ones. f_equal. lia.
  - apply length_nonnil. rewrite repeat_length. lia.
Qed.

Theorem ref_huff_decode_sound bs syms : ref_huff_decode bs = Some syms -> huff_valid bs syms.
Proof. exact (ref_walk_sound bs [] syms). Qed.

Theorem ref_huff_decode_complete bs syms : huff_valid bs syms -> ref_huff_decode bs = Some syms.
Proof.
  intros [Hall [pad [-> [Hlen Hones]]]]. unfold ref_huff_decode.
  rewrite ref_walk_codes, ref_walk_ones by (assumption || lia).
  apply Nat.ltb_lt in Hlen. rewrite Hlen. cbn [option_map].
  rewrite app_nil_r. reflexivity.
Qed.

Theorem ref_huff_decode_iff bs syms : ref_huff_decode bs = Some syms <-> huff_valid bs syms.
Proof. split; [apply ref_huff_decode_sound | apply ref_huff_decode_complete]. Qed.

(* the grammar is unambiguous *)
Corollary huff_valid_unique bs s1 s2 : huff_valid bs s1 -> huff_valid bs s2 -> s1 = s2.
Proof.
  intros H1 H2. apply ref_huff_decode_complete in H1, H2. congruence.
Qed.

(* The bit prefix (path in the code tree) of each of the 15 sub-tables, computed from
   DECODE_TABLE itself: table 0 is the root; a table entered by the BRANCH cell at position
   [k = 256 * t + i] has the path of [t] followed by the 8 bits of [i].
   15 = [length dec_table] / TABLE_WIDTH ([dec_table_length]; [lookahead] uses it with [t < 15]);
   fuel 4 covers the at most three index bytes before the last lookup of a 30-bit code.  Neither
   literal is trusted: with fewer tables or too little fuel a path comes out short and
   [tpath_sweep] fails. *)
Fixpoint branch_cells (k : N) (l : list N) : list (N * N) :=
  match l with
  | [] => []
  | e :: l' =>
      if entry_is_branch e then (entry_table e, k) :: branch_cells (k + 1) l'
      else branch_cells (k + 1) l'
  end.

Definition dec_branches : list (N * N) := branch_cells 0 dec_table.

Fixpoint tpath_fuel (fuel : nat) (t : N) : list bool :=
  match fuel with
  | O => []
  | S fuel' =>
      if t =? 0 then []
      else match find (fun c => fst c =? t) dec_branches with
           | Some (_, k) => tpath_fuel fuel' (N.shiftr k 8) ++ bitsN 8 k
           | None => []
           end
  end.

Definition table_paths : list (list bool) := map (fun n => tpath_fuel 4 (N.of_nat n)) (seq 0 15).
Definition tpath (t : N) : list bool := nth (N.to_nat t) table_paths [].

Lemma tpath_0 : tpath 0 = [].
Proof. vm_compute. reflexivity. Qed.

(* Needed of the path of a table other than the root: 8 bits or more, so that what ends in that
   table is not padding; a proper prefix of a code word, so that the 8 bits of the BRANCH cell
   that enters it complete no code word. *)
Definition tpath_ok (t : N) : bool :=
  let p := tpath t in
  (8 <=? length p)%nat &&
  existsb (fun c => bits_eqb (firstn (length p) c) p && (length p <? length c)%nat) rfc_code_bits.

Lemma tpath_sweep : forallb tpath_ok (map N.of_nat (seq 1 14)) = true.
Proof. vm_compute. reflexivity. Qed.

Lemma tpath_inside t :
  t < 15 -> t <> 0 ->
  (8 <= length (tpath t))%nat /\
  exists s rest, s < 257 /\ rest <> [] /\ tpath t ++ rest = code_bits s.
Proof.
  intros Ht Hnz. assert (S : tpath_ok t = true).
  { apply (proj1 (forallb_forall _ _) tpath_sweep), in_map_iff.
    exists (N.to_nat t). split; [lia | apply in_seq; lia]. }
  apply andb_true_iff in S as [Hlen S]. apply Nat.leb_le in Hlen. split; [exact Hlen|].
  apply existsb_exists in S as [c [Hin S]]. apply andb_true_iff in S as [Hpre Hlt].
  apply bits_eqb_eq in Hpre. apply Nat.ltb_lt in Hlt.
  apply In_nth_error in Hin as [n Hn]. destruct (nth_code_bits n c Hn) as [Hs <-].
  exists (N.of_nat n), (skipn (length (tpath t)) (code_bits (N.of_nat n))). split; [exact Hs|split].
  - apply length_nonnil. rewrite skipn_length. lia.
  - rewrite <- Hpre at 1. apply firstn_skipn.
Qed.

(* walking [w] from [path] towards the code word of [s] that ends [u] bits after [path] *)
Definition walk_toward (path w : list bool) (s : N) (u : nat) : Prop :=
  ((u <= length w)%nat -> forall tl,
     ref_walk path (w ++ tl) =
       if s =? EOS then None else option_map (cons s) (ref_walk [] (skipn u w ++ tl))) /\
  ((length w < u)%nat -> forall tl, ref_walk path (w ++ tl) = ref_walk (path ++ w) tl).

Lemma ref_walk_toward path x y w z s u :
  w ++ z = x ++ y -> s < 257 -> (0 < u <= length x)%nat -> code_bits s = path ++ firstn u x ->
  walk_toward path w s u.
Proof.
  intros Hw Hs Hu Hc.
  assert (E : firstn u x = firstn u w ++ firstn (u - length w) z).
  { rewrite <- firstn_app, Hw, firstn_app. replace (u - length x)%nat with 0%nat by lia.
    symmetry. apply app_nil_r. }
  apply (f_equal (@length bool)) in Hw. rewrite !app_length in Hw.
  rewrite E in Hc. split; intros Hl tl.
  - replace (u - length w)%nat with 0%nat in Hc by lia. rewrite firstn_O, app_nil_r in Hc.
    rewrite <- (firstn_skipn u w) at 1. rewrite <- app_assoc.
    apply ref_walk_code_end; [exact Hs | symmetry; exact Hc |].
    apply length_nonnil. rewrite firstn_length. lia.
  - rewrite firstn_all2 in Hc by lia.
    apply (ref_walk_inside w path s (firstn (u - length w) z) tl Hs); [symmetry; exact Hc|].
    apply length_nonnil. rewrite firstn_length. lia.
Qed.

(* cell [e] at position [k = 256 * t + i] of DECODE_TABLE, against the code:
   a leaf (symbol, bits used) completes the code word of the symbol after [used] bits of [i];
   a BRANCH to table 0 completes EOS; a BRANCH to another table continues on that table's path *)
Definition cell_ok (k e : N) : bool :=
  let p := tpath (N.shiftr k 8) in
  let w := bitsN 8 k in
  if entry_is_branch e then
    if entry_table e =? 0 then
      let u := (30 - length p)%nat in
      (1 <=? u)%nat && (u <=? 8)%nat && bits_eqb (code_bits EOS) (p ++ firstn u w)
    else (entry_table e <? 15) && bits_eqb (tpath (entry_table e)) (p ++ w)
  else
    (1 <=? entry_used e) && (entry_used e <=? 8) && (entry_sym e <? 256) &&
    bits_eqb (code_bits (entry_sym e)) (p ++ firstn (N.to_nat (entry_used e)) w).

Fixpoint cells_ok (k : N) (l : list N) : bool :=
  match l with
  | [] => true
  | e :: l' => cell_ok k e && cells_ok (k + 1) l'
  end.

Lemma cells_ok_nth : forall l k j e,
  cells_ok k l = true -> nth_error l j = Some e -> cell_ok (k + N.of_nat j) e = true.
Proof.
  induction l as [|e' l IH]; intros k j e H Hj; [destruct j; discriminate|].
  cbn [cells_ok] in H. apply andb_true_iff in H as [H0 H].
  destruct j as [|j]; cbn [nth_error] in Hj.
  - injection Hj as <-. rewrite N.add_0_r. exact H0.
  - replace (k + N.of_nat (S j)) with (k + 1 + N.of_nat j) by lia. exact (IH _ _ _ H Hj).
Qed.

(* breaks when DECODE_TABLE is edited wrongly *)
Lemma dec_table_cells_sweep : cells_ok 0 dec_table = true.
Proof. vm_compute. reflexivity. Qed.

Lemma dec_table_length : length dec_table = 3840%nat.
Proof. vm_compute. reflexivity. Qed.

(* one table lookup = walking bits [w] in the reference decoder, where the 8 bits of the
   index and [w] agree as far as both go *)
Lemma lookahead t i w y z :
  t < 15 -> i < 256 -> w ++ z = bitsN 8 i ++ y ->
  exists e, dec_entry t i = Some e /\
    if entry_is_branch e then
      if entry_table e =? 0 then exists u, (u <= 8)%nat /\ walk_toward (tpath t) w EOS u
      else entry_table e < 15 /\ tpath (entry_table e) = tpath t ++ bitsN 8 i /\
           forall a b tl, a ++ b = bitsN 8 i ->
             ref_walk (tpath t) (a ++ tl) = ref_walk (tpath t ++ a) tl
    else
      1 <= entry_used e <= 8 /\ entry_sym e < 256 /\
      walk_toward (tpath t) w (entry_sym e) (N.to_nat (entry_used e)).
Proof.
  intros Ht Hi Hw. unfold dec_entry, huff_TABLE_WIDTH.
  destruct (nth_error dec_table (N.to_nat (t * 256 + i))) as [e|] eqn:He.
  2:{ apply nth_error_None in He. rewrite dec_table_length in He. lia. }
  exists e. split; [reflexivity|].
  apply (cells_ok_nth _ _ _ _ dec_table_cells_sweep) in He.
  rewrite N.add_0_l, N2Nat.id in He. unfold cell_ok in He.
  rewrite N.shiftr_div_pow2, <- (bitsN_mod 8 (t * 256 + i) 8) in He by (cbn; lia).
  change (2 ^ 8) with 256 in He.
  replace ((t * 256 + i) / 256) with t in He by lia.
  replace ((t * 256 + i) mod 256) with i in He by lia.
  cbv zeta in He. destruct (entry_is_branch e).
  - destruct (entry_table e =? 0) eqn:Hz.
    + apply andb_true_iff in He as [He Hc]. apply bits_eqb_eq in Hc.
      exists (30 - length (tpath t))%nat. split; [lia|].
      apply ref_walk_toward with (1 := Hw); [reflexivity | rewrite bitsN_length; lia | exact Hc].
    + apply andb_true_iff in He as [Hl Hc]. apply N.ltb_lt in Hl. apply bits_eqb_eq in Hc.
      apply N.eqb_neq in Hz.
      destruct (tpath_inside _ Hl Hz) as [_ [s [rest [Hs [Hne Hcode]]]]].
      split; [exact Hl|]. split; [exact Hc|]. intros a b tl Hab.
      apply (ref_walk_inside a _ s (b ++ rest) tl Hs).
      * rewrite <- Hcode, Hc, <- Hab, <- !app_assoc. reflexivity.
      * destruct b; [exact Hne | discriminate].
  - apply andb_true_iff in He as [He Hc]. apply bits_eqb_eq in Hc.
    split; [lia|]. split; [lia|].
    apply ref_walk_toward with (1 := Hw); [lia | rewrite bitsN_length; lia | exact Hc].
Qed.

Definition embed (o : option (list N)) : hres :=
  match o with
  | Some l => HOk l
  | None => HErr
  end.

Definition inner_then (r : inner_res) (k : N -> N -> hres) : hres :=
  match r with
  | IState t bits put => hres_put put (k t bits)
  | IErr => HErr
  | IPanic => HPanic
  | ILoop => HLoop
  end.

Lemma dec_bytes_cons t acc bits byte src :
  dec_bytes t acc bits (byte :: src) =
    let acc' := N.lor ((acc * 256) mod 2 ^ 32) byte in
    inner_then (dec_inner (N.to_nat (bits + 8)) t acc' (bits + 8))
      (fun t' bits' => dec_bytes t' acc' bits' src).
Proof. reflexivity. Qed.

Lemma inner_then_put b r k : inner_then (inner_put b r) k = hres_put [b] (inner_then r k).
Proof. destruct r as [t bits put| | |]; try reflexivity. cbn. destruct (k t bits); reflexivity. Qed.

(* the inner loop, followed by anything that is right for the state it leaves, is right *)
Lemma dec_inner_correct : forall fuel t acc bits tl k,
  t < 15 -> bits < 8 + N.of_nat fuel ->
  (forall t' bits', t' < 15 -> bits' < 8 ->
     k t' bits' = embed (ref_walk (tpath t') (bitsN (N.to_nat bits') acc ++ tl))) ->
  inner_then (dec_inner fuel t acc bits) k =
    embed (ref_walk (tpath t) (bitsN (N.to_nat bits) acc ++ tl)).
Proof.
  induction fuel as [|fuel IH]; intros t acc bits tl k Ht Hfuel Hk; cbn [dec_inner];
    destruct (N.ltb_spec bits 8) as [Hb|Hb].
  1,3: cbn [inner_then]; rewrite (Hk t bits Ht Hb); destruct (ref_walk _ _); reflexivity.
  - lia.
  - set (i := (acc / 2 ^ (bits - 8)) mod 256).
    assert (Hi : i < 256) by (apply N.mod_lt; lia).
    pose proof (bitsN_lookup bits acc Hb) as E. fold i in E.
    destruct (lookahead t i _ _ [] Ht Hi (eq_trans (app_nil_r _) E)) as [e [He L]].
    rewrite He.
    destruct (entry_is_branch e); cbn [negb].
    + destruct (entry_table e =? 0).
      * destruct L as [u [Hu [L _]]]. rewrite L by (rewrite bitsN_length; lia). reflexivity.
      * destruct L as [Ht' [Hp L]].
        rewrite E, <- app_assoc, (L _ [] _ (app_nil_r _)), <- Hp.
        apply IH; [exact Ht' | lia | exact Hk].
    + destruct L as [Hu [Hs [L _]]].
      destruct (N.ltb_spec bits (entry_used e)); [lia|].
      rewrite L, (octet_not_eos _ Hs), bitsN_skipn by (rewrite bitsN_length; lia).
      rewrite inner_then_put, (IH 0 acc _ tl k), tpath_0 by (lia || exact Hk).
      destruct (ref_walk [] _); reflexivity.
Qed.

(* [acc & padding == padding] with [padding = (1 << bits) - 1]: the pending bits are all ones *)
Lemma padding_all_ones acc bits :
  (N.land acc (2 ^ bits - 1) =? 2 ^ bits - 1) = all_ones (bitsN (N.to_nat bits) acc).
Proof.
  rewrite <- N.pred_sub, <- N.ones_equiv, N.land_ones.
  apply eq_true_iff_eq. rewrite N.eqb_eq, bitsN_all_ones, N2Nat.id. split.
  - intros E i Hi. rewrite <- (N.mod_pow2_bits_low acc bits i Hi), E. apply N.ones_spec_low, Hi.
  - intros H. apply N.bits_inj. intros i. destruct (N.ltb_spec i bits) as [Hi|Hi].
    + rewrite N.mod_pow2_bits_low, N.ones_spec_low by exact Hi. apply H, Hi.
    + rewrite N.mod_pow2_bits_high, N.ones_spec_high by exact Hi. reflexivity.
Qed.

(* [(acc << (8 - bits)) as u8]: the pending bits, then 8 - bits more *)
Lemma finish_index acc bits :
  bits < 8 ->
  let i := ((acc * 2 ^ (8 - bits)) mod 2 ^ 32) mod 256 in
  i < 256 /\ bitsN (N.to_nat bits) acc ++ bitsN (N.to_nat (8 - bits)) i = bitsN 8 i.
Proof.
  intros Hb i. split; [apply N.mod_lt; lia|].
  replace (bitsN 8 i) with (bitsN (N.to_nat (bits + (8 - bits))) i) by (f_equal; lia).
  rewrite bitsN_split. f_equal. apply bitsN_ext. intros j Hj.
  unfold i. change 256 with (2 ^ 8).
  rewrite N.div_pow2_bits, !N.mod_pow2_bits_low by lia. symmetry. apply N.mul_pow2_bits_add.
Qed.

Lemma ref_walk_stop t w :
  t < 15 -> (length w <? 8)%nat = true ->
  ref_walk (tpath t ++ w) [] = if (t =? 0) && all_ones w then Some [] else None.
Proof.
  intros Ht Hw. cbn [ref_walk]. destruct (N.eqb_spec t 0) as [->|Hnz].
  - rewrite tpath_0. cbn [app andb]. rewrite Hw. reflexivity.
  - destruct (tpath_inside t Ht Hnz) as [D _].
    replace (length (tpath t ++ w) <? 8)%nat with false; [reflexivity|].
    symmetry. apply Nat.ltb_ge. rewrite app_length. lia.
Qed.

Lemma dec_end_correct t : t < 15 -> dec_end t = embed (ref_walk (tpath t) []).
Proof.
  intros Ht. rewrite <- (app_nil_r (tpath t)), (ref_walk_stop t [] Ht eq_refl).
  unfold dec_end. destruct (t =? 0); reflexivity.
Qed.

Lemma dec_finish_correct : forall fuel t acc bits,
  t < 15 -> bits < 8 -> bits <= N.of_nat fuel ->
  dec_finish fuel t acc bits = embed (ref_walk (tpath t) (bitsN (N.to_nat bits) acc)).
Proof.
  induction fuel as [|fuel IH]; intros t acc bits Ht Hb Hfuel; cbn [dec_finish];
    (destruct (N.eqb_spec bits 0) as [->|Hnz]; [exact (dec_end_correct t Ht)|]).
  - lia.
  - destruct (N.leb_spec 8 bits); [lia|].
    rewrite padding_all_ones. set (w := bitsN (N.to_nat bits) acc).
    assert (Hlen : length w = N.to_nat bits) by apply bitsN_length.
    assert (Hw : (length w <? 8)%nat = true) by (apply Nat.ltb_lt; lia).
    pose proof (ref_walk_stop t w Ht Hw) as Hstop.
    destruct ((t =? 0) && all_ones w) eqn:G.
    { apply andb_true_iff in G as [Ht0 Hones]. apply N.eqb_eq in Ht0. subst t.
      rewrite tpath_0, ref_walk_ones, Hw by (exact Hones || lia). reflexivity. }
    destruct (finish_index acc bits Hb) as [Hi Hsplit].
    destruct (lookahead t _ w [] _ Ht Hi (eq_trans Hsplit (eq_sym (app_nil_r _)))) as [e [He L]].
    rewrite He.
    rewrite <- (app_nil_r w).
    destruct (entry_is_branch e).
    + destruct (entry_table e =? 0).
      * destruct L as [u [_ [L1 L2]]]. destruct (Nat.le_gt_cases u (length w)) as [Hu|Hu].
        -- rewrite (L1 Hu). reflexivity.
        -- rewrite (L2 Hu), Hstop. reflexivity.
      * destruct L as [_ [_ L]]. rewrite (L w _ [] Hsplit), Hstop. reflexivity.
    + destruct L as [Hu [Hs [L1 L2]]].
      destruct (N.ltb_spec bits (entry_used e)) as [Hlt|Hge].
      * rewrite L2, Hstop by lia. reflexivity.
      * rewrite L1, (octet_not_eos _ Hs) by lia.
        unfold w. rewrite bitsN_skipn, app_nil_r, IH, tpath_0 by lia.
        destruct (ref_walk [] _); reflexivity.
Qed.

Lemma push_byte acc bits byte :
  bits <= 24 -> byte < 256 ->
  bitsN (N.to_nat (bits + 8)) (N.lor ((acc * 256) mod 2 ^ 32) byte) =
    bitsN (N.to_nat bits) acc ++ bitsN 8 byte.
Proof.
  intros Hb Hbyte.
  change 256 with (2 ^ 8). change (2 ^ 32) with (2 ^ 24 * 2 ^ 8).
  rewrite N.mul_mod_distr_r by apply pow2_nz.
  rewrite (lor_add_disjoint _ byte 8) by (apply N.mod_mul, pow2_nz || exact Hbyte).
  rewrite bitsN_push by exact Hbyte. f_equal. apply bitsN_mod. lia.
Qed.

Lemma dec_bytes_correct : forall src t acc bits,
  t < 15 -> bits < 8 -> bytes_ok src = true ->
  dec_bytes t acc bits src =
    embed (ref_walk (tpath t) (bitsN (N.to_nat bits) acc ++ bits_of_bytes src)).
Proof.
  induction src as [|byte src IH]; intros t acc bits Ht Hb Hok; cbn [bits_of_bytes].
  - rewrite app_nil_r. apply dec_finish_correct; [assumption..|lia].
  - apply bytes_ok_cons in Hok as [Hbyte Hok].
    rewrite dec_bytes_cons, app_assoc, <- (push_byte acc bits byte) by lia.
    apply dec_inner_correct; [exact Ht | lia |].
    intros t' bits' Ht' Hb'. apply IH; assumption.
Qed.

Theorem huff_decode_exact bytes :
  bytes_ok bytes = true ->
  huff_decode bytes = embed (ref_huff_decode (bits_of_bytes bytes)).
Proof.
  intros Hok. unfold huff_decode, ref_huff_decode.
  rewrite (dec_bytes_correct bytes 0 0 0) by (try lia; exact Hok).
  rewrite tpath_0. reflexivity.
Qed.

Example huff_decode_exact_nonvacuous : bytes_ok [254; 1] = true /\ huff_decode [254; 1] = HOk [33; 48].
Proof. vm_compute. auto. Qed.

Corollary huff_decode_never_panics bytes :
  bytes_ok bytes = true -> huff_decode bytes <> HPanic /\ huff_decode bytes <> HLoop.
Proof.
  intros Hok. rewrite (huff_decode_exact bytes Hok).
  destruct (ref_huff_decode (bits_of_bytes bytes)); cbn [embed]; split; discriminate.
Qed.

(* Ok exactly on the RFC grammar, with exactly the RFC's field value *)
Corollary huff_decode_ok_iff bytes syms :
  bytes_ok bytes = true ->
  (huff_decode bytes = HOk syms <-> huff_valid (bits_of_bytes bytes) syms).
Proof.
  intros Hok. rewrite (huff_decode_exact bytes Hok), <- ref_huff_decode_iff.
  destruct (ref_huff_decode (bits_of_bytes bytes)); cbn [embed]; split; intros H; congruence.
Qed.

Corollary huff_decode_err_iff bytes :
  bytes_ok bytes = true ->
  (huff_decode bytes = HErr <-> forall syms, ~ huff_valid (bits_of_bytes bytes) syms).
Proof.
  intros Hok. rewrite (huff_decode_exact bytes Hok). split.
  - intros H syms V. apply ref_huff_decode_complete in V. rewrite V in H. discriminate.
  - intros H. destruct (ref_huff_decode (bits_of_bytes bytes)) as [syms|] eqn:R; [|reflexivity].
    exfalso. apply (H syms), ref_huff_decode_sound, R.
Qed.

(* the decoding errors RFC 7541 section 5.2 demands *)

(* EOS inside the string *)
Corollary huff_decode_rejects_eos bytes pre tl :
  bytes_ok bytes = true -> Forall (fun s => s < 256) pre ->
  bits_of_bytes bytes = concat (map code_bits pre) ++ code_bits EOS ++ tl ->
  huff_decode bytes = HErr.
Proof.
  intros Hok Hpre Heq. rewrite (huff_decode_exact bytes Hok). unfold ref_huff_decode.
  rewrite Heq, ref_walk_codes by exact Hpre.
  rewrite ref_walk_code by reflexivity. reflexivity.
Qed.

(* padding of 8 or more one-bits (whatever its length) *)
Corollary huff_decode_rejects_long_padding bytes pre pad :
  bytes_ok bytes = true -> Forall (fun s => s < 256) pre ->
  bits_of_bytes bytes = concat (map code_bits pre) ++ pad ->
  all_ones pad = true -> (8 <= length pad)%nat ->
  huff_decode bytes = HErr.
Proof.
  intros Hok Hpre Heq Hones Hlen. rewrite (huff_decode_exact bytes Hok). unfold ref_huff_decode.
  rewrite Heq, ref_walk_codes by exact Hpre.
  destruct (Nat.lt_ge_cases (length pad) 30) as [H30|H30].
  - rewrite ref_walk_ones by assumption.
    destruct (Nat.ltb_spec (length pad) 8); [lia | reflexivity].
  - rewrite (all_ones_repeat _ Hones).
    replace (length pad) with (30 + (length pad - 30))%nat by lia.
    rewrite repeat_app, <- rfc_eos_is_30_ones, ref_walk_code by reflexivity. reflexivity.
Qed.

(* an incomplete code at the end (no code word is a prefix of it) that is not all ones *)
Corollary huff_decode_rejects_bad_padding bytes pre pad :
  bytes_ok bytes = true -> Forall (fun s => s < 256) pre ->
  bits_of_bytes bytes = concat (map code_bits pre) ++ pad ->
  (forall s l, s < 257 -> pad <> code_bits s ++ l) ->
  all_ones pad = false ->
  huff_decode bytes = HErr.
Proof.
  intros Hok Hpre Heq Hinc Hbad. rewrite (huff_decode_exact bytes Hok). unfold ref_huff_decode.
  rewrite Heq, ref_walk_codes by exact Hpre.
  destruct (ref_walk [] pad) as [syms|] eqn:R; [exfalso|reflexivity].
  apply ref_walk_sound in R as [Hall [pad' [E [_ Hones]]]]. cbn [app] in E.
  destruct Hall as [|s syms Hs _]; cbn [map concat app] in E.
  - congruence.
  - apply (Hinc s (concat (map code_bits syms) ++ pad')); [lia|]. rewrite E. apply eq_sym, app_assoc.
Qed.

(* non-vacuity: a concrete decode and a concrete rejection of each kind *)
Example ex_decode_ok : huff_decode [156; 180; 80; 127] = HOk [104; 101; 108; 108; 111].   (* "hello" *)
Proof. vm_compute. reflexivity. Qed.
Example ex_decode_ok_pad7 : huff_decode [63] = HOk [111].   (* 'o' = 00111 + 3 ones *)
Proof. vm_compute. reflexivity. Qed.
Example ex_reject_eos : huff_decode [255; 255; 255; 255] = HErr.            (* EOS + 2 ones *)
Proof. vm_compute. reflexivity. Qed.
Example ex_reject_eos_inside : huff_decode [7; 255; 255; 255; 231] = HErr.  (* '0', EOS, 'o' *)
Proof. vm_compute. reflexivity. Qed.
Example ex_reject_long_padding : huff_decode [7; 255] = HErr.              (* '0' + 11 ones *)
Proof. vm_compute. reflexivity. Qed.
Example ex_reject_8_ones : huff_decode [255] = HErr.
Proof. vm_compute. reflexivity. Qed.
Example ex_reject_zero_padding : huff_decode [6] = HErr.                   (* '0' + 110 *)
Proof. vm_compute. reflexivity. Qed.
Example ex_reject_incomplete_long_code : huff_decode [255; 254] = HErr.
Proof. vm_compute. reflexivity. Qed.
Example ex_rejects_eos_hyps :
  bits_of_bytes [7; 255; 255; 255; 231] = concat (map code_bits [48]) ++ code_bits EOS ++ code_bits 111 /\
  Forall (fun s => s < 256) [48].
Proof. split; [vm_compute; reflexivity | repeat constructor]. Qed.
Example ex_long_padding_hyps :
  bits_of_bytes [7; 255] = concat (map code_bits [48]) ++ repeat true 11.
Proof. vm_compute. reflexivity. Qed.

(* The encoder keeps [bits = q * 2 ^ bits_left]; the 40 - bits_left low bits of [q] are pending. *)

(* [bits |= code << (bits_left - nbits)] with [bits_left = r + nbits] *)
Lemma enc_push_code q r n c :
  r + n <= 64 -> c < 2 ^ n ->
  N.lor (q * 2 ^ (r + n)) ((c * 2 ^ r) mod 2 ^ 64) = (q * 2 ^ n + c) * 2 ^ r.
Proof.
  intros Hle Hc.
  assert (Hlt : c * 2 ^ r < 2 ^ (r + n)).
  { rewrite N.pow_add_r, (N.mul_comm (2 ^ r)).
    apply N.mul_lt_mono_pos_r; [apply N.neq_0_lt_0, pow2_nz | exact Hc]. }
  rewrite N.mod_small
    by (apply (N.lt_le_trans _ _ _ Hlt), N.pow_le_mono_r; [discriminate | exact Hle]).
  rewrite (lor_add_disjoint _ _ (r + n)) by (apply N.mod_mul, pow2_nz || exact Hlt).
  rewrite N.pow_add_r. ring.
Qed.

Lemma enc_flush_correct : forall fuel q left,
  left <= 40 -> 32 < left + 8 * N.of_nat fuel ->
  exists put q' left',
    enc_flush fuel (q * 2 ^ left) left = Some (put, q' * 2 ^ left', left') /\
    33 <= left' <= 40 /\ bytes_ok put = true /\
    bitsN (N.to_nat (40 - left)) q = bits_of_bytes put ++ bitsN (N.to_nat (40 - left')) q'.
Proof.
  induction fuel as [|fuel IH]; intros q left Hle Hfuel; cbn [enc_flush];
    destruct (N.ltb_spec 32 left) as [E|E].
  1,3: exists [], q, left; repeat split; (lia || reflexivity).
  - lia.
  - (* [bits <<= 8] on u64 drops the bits of [q] from 56 - left up *)
    replace ((q * 2 ^ left * 256) mod 2 ^ 64) with (q mod 2 ^ (56 - left) * 2 ^ (left + 8)).
    2:{ replace (2 ^ 64) with (2 ^ (56 - left) * 2 ^ (left + 8))
          by (rewrite <- N.pow_add_r; f_equal; lia).
        change 256 with (2 ^ 8). rewrite <- N.mul_assoc, <- N.pow_add_r.
        symmetry. apply N.mul_mod_distr_r; apply pow2_nz. }
    destruct (IH (q mod 2 ^ (56 - left)) (left + 8) ltac:(lia) ltac:(lia))
      as [put [q' [left' [Hf [Hl [Hok Hbits]]]]]].
    rewrite Hf. exists ((q * 2 ^ left / 2 ^ 32) mod 256 :: put), q', left'.
    split; [reflexivity|]. split; [exact Hl|]. split.
    { apply bytes_ok_cons. split; [apply N.mod_lt; discriminate | exact Hok]. }
    cbn [bits_of_bytes]. rewrite <- app_assoc, <- Hbits, (bitsN_lookup (40 - left) q) by lia.
    replace (40 - left - 8) with (32 - left) by lia.
    replace (40 - (left + 8)) with (32 - left) by lia.
    rewrite bitsN_mod by lia. do 3 f_equal.
    replace (2 ^ 32) with (2 ^ (32 - left) * 2 ^ left) by (rewrite <- N.pow_add_r; f_equal; lia).
    symmetry. apply N.div_mul_cancel_r; apply pow2_nz.
Qed.

(* the final byte, for [bits_left = 32 + k]: pending bits then ones *)
Lemma enc_last_byte q k :
  k < 8 ->
  exists pad,
    bitsN 8 ((N.lor (q * 2 ^ (32 + k)) (2 ^ (32 + k) - 1) / 2 ^ 32) mod 256) =
      bitsN (N.to_nat (8 - k)) q ++ pad /\
    (length pad < 8)%nat /\ all_ones pad = true.
Proof.
  intros Hk. pose proof (pow2_nz k) as Hnz. exists (bitsN (N.to_nat k) (2 ^ k - 1)).
  replace (N.lor _ _ / 2 ^ 32) with (q * 2 ^ k + (2 ^ k - 1)).
  2:{ rewrite (lor_add_disjoint _ _ (32 + k))
        by (apply N.mod_mul, pow2_nz || (pose proof (pow2_nz (32 + k)); lia)).
      rewrite N.pow_add_r. apply (N.div_unique _ _ _ (2 ^ 32 - 1)); [reflexivity | lia]. }
  change 256 with (2 ^ 8). rewrite bitsN_mod by (cbn; lia).
  replace 8%nat with (N.to_nat (8 - k + k)) by lia. rewrite bitsN_push by lia.
  split; [reflexivity|]. split; [rewrite bitsN_length; lia|].
  apply bitsN_all_ones. intros i Hi.
  rewrite <- N.pred_sub, <- N.ones_equiv. apply N.ones_spec_low. lia.
Qed.

Lemma enc_loop_correct : forall src q left,
  33 <= left <= 40 -> bytes_ok src = true ->
  exists out pad,
    enc_loop (q * 2 ^ left) left src = Some out /\ bytes_ok out = true /\
    bits_of_bytes out =
      bitsN (N.to_nat (40 - left)) q ++ concat (map code_bits src) ++ pad /\
    (length pad < 8)%nat /\ all_ones pad = true.
Proof.
  induction src as [|b src IH]; intros q left Hl Hok; cbn [enc_loop map concat].
  - destruct (N.eqb_spec left 40) as [->|E].
    + exists [], []. repeat split; try reflexivity. cbn [length]; lia.
    + destruct (N.leb_spec 64 left); [lia|].
      assert (Hk : exists k, left = 32 + k) by (exists (left - 32); lia). destruct Hk as [k ->].
      destruct (enc_last_byte q k ltac:(lia)) as [pad [Hb Hpad]].
      eexists. exists pad. split; [reflexivity|]. split.
      { apply bytes_ok_cons. split; [apply N.mod_lt; discriminate | reflexivity]. }
      cbn [bits_of_bytes app]. rewrite app_nil_r, Hb.
      replace (40 - (32 + k)) with (8 - k) by lia. auto.
  - apply bytes_ok_cons in Hok as [Hb Hok].
    destruct (code_entry b ltac:(lia)) as [n [c [Hnth [Hn [Hc Hcode]]]]].
    rewrite gen_enc_table_is_rfc, Hnth.
    destruct (N.ltb_spec left n); [lia|].
    destruct (N.leb_spec 64 (left - n)); [lia|].
    assert (Hr : exists r, left = r + n) by (exists (left - n); lia). destruct Hr as [r ->].
    replace (r + n - n) with r by lia.
    rewrite enc_push_code by (lia || exact Hc).
    destruct (enc_flush_correct flush_fuel (q * 2 ^ n + c) r ltac:(lia) ltac:(unfold flush_fuel; lia))
      as [put [q' [left' [Hf [Hl' [Hokput Hflush]]]]]].
    rewrite Hf.
    destruct (IH q' left' Hl' Hok) as [rest [pad [Hrest [Hokrest [Hbits Hpad]]]]].
    rewrite Hrest. exists (put ++ rest), pad.
    split; [reflexivity|]. split.
    { rewrite bytes_ok_app, Hokput, Hokrest. reflexivity. }
    split; [|exact Hpad].
    rewrite bits_of_bytes_app, Hbits, app_assoc, <- Hflush, Hcode.
    replace (40 - r) with (40 - (r + n) + n) by lia. rewrite bitsN_push by exact Hc.
    rewrite <- !app_assoc. reflexivity.
Qed.

(* pub fn encode: bits = 0, bits_left = 40 *)
Lemma huff_encode_run s :
  bytes_ok s = true ->
  exists out pad,
    huff_encode_opt s = Some out /\ bytes_ok out = true /\
    bits_of_bytes out = concat (map code_bits s) ++ pad /\
    (length pad < 8)%nat /\ all_ones pad = true.
Proof. intros Hok. exact (enc_loop_correct s 0 40 ltac:(lia) Hok). Qed.

Theorem huff_encode_total s :
  bytes_ok s = true -> huff_encode_opt s = Some (huff_encode s) /\ bytes_ok (huff_encode s) = true.
Proof.
  intros Hok. unfold huff_encode.
  destruct (huff_encode_run s Hok) as [out [pad [-> [Hokout _]]]]. auto.
Qed.

Theorem huff_encode_spec s :
  bytes_ok s = true ->
  exists pad, bits_of_bytes (huff_encode s) = concat (map code_bits s) ++ pad /\
              (length pad < 8)%nat /\ all_ones pad = true.
Proof.
  intros Hok. unfold huff_encode.
  destruct (huff_encode_run s Hok) as [out [pad [-> [_ Hbits]]]]. exists pad. exact Hbits.
Qed.

Theorem huff_encode_valid s :
  bytes_ok s = true -> huff_valid (bits_of_bytes (huff_encode s)) s.
Proof.
  intros Hok. split; [|apply huff_encode_spec, Hok].
  apply Forall_forall. intros b Hb. apply N.ltb_lt, (proj1 (forallb_forall _ _) Hok b Hb).
Qed.

Theorem huff_roundtrip s : bytes_ok s = true -> huff_decode (huff_encode s) = HOk s.
Proof.
  intros Hok.
  apply huff_decode_ok_iff; [apply huff_encode_total, Hok | apply huff_encode_valid, Hok].
Qed.

Example huff_roundtrip_nonvacuous :
  bytes_ok [0; 255; 10; 104] = true /\ huff_encode [0; 255; 10; 104] = [255; 199; 255; 255; 221; 255; 255; 255; 228; 255].
Proof. vm_compute. auto. Qed.

Example ex_encode_hello : huff_encode [104; 101; 108; 108; 111] = [156; 180; 80; 127].
Proof. vm_compute. reflexivity. Qed.
