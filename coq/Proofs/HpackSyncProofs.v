(* HPACK, both ends (C10 composed with C11): h2's encoder model feeding h2's decoder model (Huffman decoder model
   inside).  [block_spec] of Proofs/HpackEncProofs.v makes every block of the encoder a block of RFC 7541 for the
   submitted fields; Proofs/HpackDecProofs.v makes h2's decoder accept what that reference accepts, in every
   fragmentation.  The glue: what the encoder emits are octets, and the reference relation is monotone in the protocol
   limit (h2's decoder keeps the MAXIMUM of the queued SETTINGS values as ceiling, the reference of C10 the LAST). *)
From Coq Require Import String.
From H2V Require Import Base.Tac Base.Bytes Gen.StaticTable Model.HttpTokens Model.Huffman Model.HpackInt.
From H2V Require Import Ref.Rfc7541Int Ref.Rfc7541Static Ref.Rfc7541Block.
From H2V Require Import Model.HpackEnc Model.HpackDec.
From H2V Require Import Proofs.HuffmanProofs Proofs.HpackIntProofs Proofs.HpackEncProofs Proofs.HpackDecProofs.
Local Open Scope N_scope.

Local Notation hd := huff_decode_opt (only parsing).

Lemma enc_int_octets v p hi : p <= 8 -> hi < 2 ^ (8 - p) -> bytes_ok (enc_int v p (hi * 2 ^ p)) = true.
Proof.
  intros Hp Hhi. rewrite enc_int_ref. apply bytes_ok_octets, (int_repr_octets p hi v _ Hp Hhi), encode_int_repr.
Qed.

Lemma enc_str_octets s : bytes_ok s = true -> bytes_ok (enc_str s) = true.
Proof.
  intros Hs. rewrite enc_str_shape. destruct s as [|x s]; [reflexivity|].
  rewrite bytes_ok_app, enc_int_octets by easy.
  apply (huff_encode_total (x :: s) Hs).
Qed.

Lemma encode_not_indexed_octets i v sens : bytes_ok v = true -> bytes_ok (encode_not_indexed i v sens) = true.
Proof.
  intros Hv. unfold encode_not_indexed. rewrite bytes_ok_app, (enc_str_octets v Hv), andb_true_r.
  destruct sens; [apply (enc_int_octets i 4 1)|apply (enc_int_octets i 4 0)]; easy.
Qed.

Lemma encode_not_indexed2_octets n v sens :
  bytes_ok n = true -> bytes_ok v = true -> bytes_ok (encode_not_indexed2 n v sens) = true.
Proof.
  intros Hn Hv. unfold encode_not_indexed2. rewrite !bytes_ok_app, (enc_str_octets n Hn), (enc_str_octets v Hv).
  destruct sens; reflexivity.
Qed.

Lemma encode_header_octets idx h octets :
  bytes_ok (h_name h) = true -> bytes_ok (h_value h) = true ->
  encode_header idx h = EOk octets -> bytes_ok octets = true.
Proof.
  intros Hn Hv. pose proof (enc_str_octets _ Hn) as Hn'. pose proof (enc_str_octets _ Hv) as Hv'.
  unfold encode_header. destruct idx as [i|i|s|i s|].
  - intros [= <-]. apply (enc_int_octets i 7 1); easy.
  - intros [= <-]. apply encode_not_indexed_octets, Hv.
  - destruct (hdr_is_sensitive h); intros [= <-].
    apply bytes_ok_cons. rewrite bytes_ok_app, Hn', Hv'. split; [lia|reflexivity].
  - destruct (hdr_is_sensitive h); intros [= <-].
    rewrite bytes_ok_app, Hv', andb_true_r. apply (enc_int_octets i 6 1); easy.
  - intros [= <-]. apply encode_not_indexed2_octets; assumption.
Qed.

Lemma encode_header_without_name_octets last lh v sens :
  bytes_ok (h_name lh) = true -> bytes_ok v = true ->
  bytes_ok (encode_header_without_name last lh v sens) = true.
Proof.
  intros Hn Hv. unfold encode_header_without_name. destruct (resolve_idx last).
  - apply encode_not_indexed_octets. exact Hv.
  - apply encode_not_indexed2_octets; assumption.
Qed.

Lemma encode_loop_octets : forall fl t last t' out,
  forallb field_ok fl = true ->
  match last with Some (_, lh) => bytes_ok (h_name lh) = true | None => True end ->
  encode_loop t last fl = EOk (t', out) -> bytes_ok out = true.
Proof.
  induction fl as [|f fl IH]; intros t last t' out Hok Hlast H; cbn [encode_loop] in H.
  - injection H as _ <-. reflexivity.
  - cbn [forallb] in Hok. apply andb_true_iff in Hok as [Hf Hok].
    unfold field_ok in Hf. apply andb_true_iff in Hf as [Hfn Hfv]. apply str_ok_spec in Hfv as [Hfv _].
    destruct (fi_name f) as [n|].
    + apply str_ok_spec in Hfn as [Hfn _]. set (h := mkHdr n (fi_value f) (fi_sens f)) in *.
      destruct (table_index t h) as [[t1 idx]|e]; [|discriminate].
      destruct (encode_header idx h) as [octets|e] eqn:Eeh; [|discriminate].
      destruct (encode_loop t1 (Some (idx, h)) fl) as [[t2 rest]|e] eqn:El; [|discriminate].
      injection H as _ <-.
      rewrite bytes_ok_app, (encode_header_octets idx h octets Hfn Hfv Eeh), (IH t1 (Some (idx, h)) _ _ Hok Hfn El). reflexivity.
    + destruct last as [[idx lh]|]; [|discriminate].
      destruct (encode_loop t (Some (idx, lh)) fl) as [[t2 rest]|e] eqn:El; [|discriminate].
      injection H as _ <-.
      rewrite bytes_ok_app, (encode_header_without_name_octets idx lh _ _ Hlast Hfv), (IH t (Some (idx, lh)) _ _ Hok Hlast El).
      reflexivity.
Qed.

(* for EVERY encoder state: a block the encoder emits for strings of octets is a string of octets *)
Theorem enc_encode_octets st fl st2 out :
  forallb field_ok fl = true -> enc_encode st fl = EOk (st2, out) -> octets out.
Proof.
  intros Hok H. apply bytes_ok_octets. unfold enc_encode in H.
  destruct (encode_size_updates st) as [[st1 upd]|e] eqn:Eu; [|discriminate].
  destruct (encode_loop (e_table st1) None fl) as [[t2 body]|e] eqn:El; [|discriminate].
  injection H as _ <-. rewrite bytes_ok_app, (encode_loop_octets fl _ None t2 body Hok I El), andb_true_r.
  assert (Hu : forall v, bytes_ok (enc_size_update v) = true).
  { intros v. apply (enc_int_octets v 5 1); easy. }
  unfold encode_size_updates in Eu. destruct (e_size_update st) as [[v|mn mx]|].
  - destruct (table_resize (e_table st) v); [|discriminate]. injection Eu as _ <-. apply Hu.
  - destruct (table_resize (e_table st) mn) as [t1|]; [|discriminate].
    destruct (table_resize t1 mx); [|discriminate]. injection Eu as _ <-.
    rewrite bytes_ok_app, !Hu. reflexivity.
  - injection Eu as _ <-. reflexivity.
Qed.

Lemma updates_decode_limit_mono L lim lim' dyn max bs dyn' max' :
  lim <= lim' -> updates_decode L lim dyn max bs dyn' max' -> updates_decode L lim' dyn max bs dyn' max'.
Proof.
  intros Hle H. induction H as [|dyn max enc n bs dyn' max' Hs _ IH]; [constructor|].
  eapply ud_cons; [|exact IH]. destruct Hs as [enc n Hr Hn]. constructor; [exact Hr|lia].
Qed.

Lemma rfc_block_decodes_limit_mono hdf L rs bs fs rs' lim' :
  r_limit rs <= lim' -> rfc_block_decodes hdf L rs bs fs rs' ->
  rfc_block_decodes hdf L (set_limit rs lim') bs fs (set_limit rs' lim').
Proof.
  intros Hle [(b1 & b2 & dyn1 & max1 & -> & Hu & Hf & Hm & Hl) Hred]. split.
  - exists b1, b2, dyn1, max1. cbn [set_limit r_dyn r_max r_limit]. split; [reflexivity|].
    split; [eapply updates_decode_limit_mono; eassumption|]. auto.
  - unfold reduction_signalled in *. cbn [set_limit r_max r_limit].
    destruct Hred as [Hred|(enc & n & rest & E & Hs)]; [left; lia|right].
    exists enc, n, rest. split; [exact E|]. destruct Hs as [enc n Hr Hn]. constructor; [exact Hr|lia].
Qed.

Lemma fold_queue_table : forall ups d,
  d_table (fold_left queue_size_update ups d) = d_table d /\
  d_last_max (fold_left queue_size_update ups d) = d_last_max d.
Proof.
  induction ups as [|u ups IH]; intros d; cbn [fold_left]; [auto|].
  destruct (IH (queue_size_update d u)) as [A B]. rewrite A, B. auto.
Qed.

(* the queue keeps the maximum, so the ceiling is at least the last value queued *)
Lemma queued_limit : forall ups d x,
  x <= last_limit_of d -> last ups x <= last_limit_of (fold_left queue_size_update ups d).
Proof.
  induction ups as [|u ups IH]; intros d x Hx; [exact Hx|]. cbn [fold_left]. rewrite last_cons. apply IH.
  unfold last_limit_of, take_queued, queue_size_update. cbn [d_queued d_last_max].
  destruct (d_queued d); cbn [d_last_max]; lia.
Qed.

(* the two ends between two blocks: the encoder invariant of C10, the decoder invariant of C11, equal
   tables (entries and maximum), nothing queued, and the table maximum within the decoder's ceiling *)
Definition hsync (st : enc_state) (d : decoder) : Prop :=
  einv st /\ e_size_update st = None /\ wf d /\ d_queued d = None /\
  t_entries (d_table d) = et_entries (e_table st) /\
  t_max (d_table d) = et_max (e_table st) /\
  et_max (e_table st) <= d_last_max d.

Lemma hsync_sizes st d : hsync st d ->
  t_entries (d_table d) = et_entries (e_table st) /\
  t_size (d_table d) = et_size (e_table st) /\
  t_max (d_table d) = et_max (e_table st) /\
  t_size (d_table d) <= t_max (d_table d) /\ t_max (d_table d) <= d_last_max d.
Proof.
  intros ([[Ht _] _] & _ & (_ & Hs & Hle) & _ & He & Hm & Hl).
  split; [exact He|]. split; [rewrite Hs, He; symmetry; exact Ht|]. split; [exact Hm|].
  split; [exact Hle|rewrite Hm; exact Hl].
Qed.

Lemma hsync_init m0 : hsync (enc_new m0) (decoder_new (N.min m0 4096)).
Proof.
  unfold hsync. split; [apply einv_init|]. split; [reflexivity|]. split; [apply wf_table_new|].
  unfold decoder_new, HpackDec.table_new, enc_new, HpackEnc.table_new, DEFAULT_MAX_ALLOWED_SIZE.
  cbn [d_queued d_table d_last_max t_entries t_max e_table et_entries et_max]. repeat split; lia.
Qed.

Definition fields_valid (fs : list (list N * list N)) : bool := forallb field_valid fs.

Theorem block_both_ends st d ups fl :
  hsync st d -> block_ok fl = true -> fields_valid (submitted fl) = true ->
  exists st2 out,
    enc_encode (fold_left enc_update_max_size ups st) fl = EOk (st2, out) /\
    let d1 := fold_left queue_size_update ups d in
    r_verdict (decode hd d1 out) = VOk /\
    r_fields (decode hd d1 out) = submitted fl /\
    hsync st2 (r_dec (decode hd d1 out)) /\
    rfc_block_decodes hd h2_int_limit (abs (take_queued d1)) out (submitted fl) (abs (r_dec (decode hd d1 out))) /\
    (forall frags, frags <> [] -> concat frags = out ->
       same_result (decode_chunks hd d1 frags) (decode hd d1 out)).
Proof.
  intros (Hi & Hnone & Hwf & Hq & Hent & Hmax & Hlim) Hok Hval.
  apply andb_true_iff in Hok as [Hnamed Hok]. pose proof (block_spec st _ ups fl Hi Hnone Hlim) as Hb.
  destruct (enc_encode (fold_left enc_update_max_size ups st) fl) as [[st2 out]|e] eqn:Henc;
    [|destruct Hb as [_ Hb]; congruence].
  destruct Hb as (Hi2 & Hn2 & Hp2 & Hrfc). specialize (Hrfc h2_int_limit (le_n 4) Hok).
  exists st2, out. split; [reflexivity|]. cbv zeta.
  set (d1 := fold_left queue_size_update ups d).
  destruct (fold_queue_table ups d) as [Htab Hlm]. fold d1 in Htab, Hlm.
  assert (Hwf1 : wf d1) by (unfold wf; rewrite Htab; exact Hwf).
  pose proof (enc_encode_octets _ _ _ _ Hok Henc) as Hoct.
  assert (Hql : last ups (d_last_max d) <= last_limit_of d1).
  { apply queued_limit. unfold last_limit_of. rewrite (take_queued_none d Hq). apply N.le_refl. }
  apply (rfc_block_decodes_limit_mono _ _ (peer st _) _ _ _ _ Hql) in Hrfc.
  replace (set_limit (peer st _) _) with (abs (take_queued d1)) in Hrfc.
  2:{ unfold abs, peer, set_limit. cbn [r_dyn r_max]. rewrite take_queued_table, Htab, Hent, Hmax. reflexivity. }
  destruct (hpack_decode_complete_modulo_validation hd d1 out _ _ Hwf1 Hoct (proj1 Hrfc) Hval) as (Hv & Hf & Ha).
  split; [exact Hv|]. split; [exact Hf|]. split; [|split].
  - destruct (decode_inv hd d1 out Hwf1) as (Hwf2 & Hq2 & _).
    injection Ha as Ha1 Ha2 Ha3.
    pose proof (N.le_trans _ _ _ Hp2 Hql) as Hl2. rewrite <- Ha3 in Hl2.
    exact (conj Hi2 (conj Hn2 (conj Hwf2 (conj Hq2 (conj Ha1 (conj Ha2 Hl2)))))).
  - rewrite Ha. exact Hrfc.
  - intros frags Hne <-. apply hpack_chunking_ok; assumption.
Qed.

(* The known classes of C11 do not occur on the encoder's blocks.  KF-C11-1 (a size update after a header field,
   where fragmentation matters): the decoder accepts the block ([block_both_ends]) and refuses every block with
   such an update ([run_quirk_verdict]).  KF-C11-3 (a required size update is not enforced by the decoder): the
   block meets RFC 7541 4.2 ([block_spec]), so the conclusions of C11's two `_except_known` theorems hold for
   every block of the encoder model WITHOUT their hypothesis [~ required_update_pending]. *)
Theorem enc_blocks_outside_known_classes st d ups fl :
  hsync st d -> block_ok fl = true -> fields_valid (submitted fl) = true ->
  exists st2 out,
    enc_encode (fold_left enc_update_max_size ups st) fl = EOk (st2, out) /\
    let d1 := fold_left queue_size_update ups d in
    let d2 := r_dec (decode hd d1 out) in
    ~ size_update_after_field hd d1 out /\
    rfc_block_decodes hd h2_int_limit (abs (take_queued d1)) out (r_fields (decode hd d1 out)) (abs d2) /\
    (t_size (d_table d2) <= t_max (d_table d2) /\ t_max (d_table d2) <= d_last_max d2).
Proof.
  intros Hs Hok Hval.
  destruct (block_both_ends st d ups fl Hs Hok Hval) as (st2 & out & Henc & Hv & Hf & Hs2 & Hrfc & _).
  exists st2, out. split; [exact Henc|]. cbv zeta. split; [|split].
  - unfold size_update_after_field. intros Hq. rewrite decode_is_run in Hq, Hv.
    pose proof (run_quirk_verdict hd _ _ (le_n _) true _ Hq) as Hbad. rewrite Hv in Hbad. discriminate.
  - rewrite Hf. exact Hrfc.
  - destruct (hsync_sizes _ _ Hs2) as (_ & _ & _ & A & B). auto.
Qed.

(* h2's decoder model over a history: the SETTINGS values are queued before each block
   (queue_size_update), the block arrives as the given fragments (decode_chunks =
   HEADERS/PUSH_PROMISE + CONTINUATION payloads), a block that is not accepted ends the run *)
Fixpoint dec_h2_run (d : decoder) (h : history) (fragss : list (list (list N)))
  : option (list (list (list N * list N)) * decoder) :=
  match h, fragss with
  | [], [] => Some ([], d)
  | (ups, _) :: h', frags :: fragss' =>
    let r := decode_chunks hd (fold_left queue_size_update ups d) frags in
    match r_verdict r with
    | VOk =>
      match dec_h2_run (r_dec r) h' fragss' with
      | Some (fss, d') => Some (r_fields r :: fss, d')
      | None => None
      end
    | _ => None
    end
  | _, _ => None
  end.

(* C11's side condition, for every submitted list: the fields pass the http-crate validation that
   h2's decoder applies (Header::new: HeaderName::from_lowercase / HeaderValue / Method / StatusCode) *)
Definition history_valid (h : history) : bool := forallb (fun b => fields_valid (submitted (snd b))) h.

(* any way of cutting each block into (at least one) fragments *)
Definition fragmentation (fragss : list (list (list N))) (outs : list (list N)) : Prop :=
  Forall2 (fun frags out => frags <> [] /\ concat frags = out) fragss outs.

Lemma run_both_ends : forall h st d,
  hsync st d -> history_ok h = true -> history_valid h = true ->
  exists st' outs, enc_run st h = EOk (st', outs) /\
    forall fragss, fragmentation fragss outs ->
      exists d', dec_h2_run d h fragss = Some (map (fun b => submitted (snd b)) h, d') /\ hsync st' d'.
Proof.
  induction h as [|[ups fl] h IH]; intros st d Hs Hok Hval.
  - exists st, []. split; [reflexivity|]. intros fragss Hfr. inversion Hfr; subst. exists d. auto.
  - cbn [history_ok forallb snd] in Hok. apply andb_true_iff in Hok. destruct Hok as [Hb Hok].
    cbn [history_valid forallb snd] in Hval. apply andb_true_iff in Hval. destruct Hval as [Hvb Hval].
    destruct (block_both_ends st d ups fl Hs Hb Hvb) as (st2 & out & Henc & Hv & Hf & Hs2 & _ & Hch).
    destruct (IH st2 _ Hs2 Hok Hval) as (st' & outs & Hrun & Hd).
    exists st', (out :: outs). cbn [enc_run]. rewrite Henc, Hrun. split; [reflexivity|].
    intros fragss Hfr. inversion Hfr as [|frags o fragss' os [Hne Hc] Hrest]; subst.
    destruct (Hch frags Hne eq_refl) as (Cf & Cv & Cd).
    destruct (Hd fragss' Hrest) as (d' & Hdr & Hs').
    exists d'. split; [|exact Hs'].
    cbn [dec_h2_run map snd]. rewrite Cv, Hv, Cd, Hdr, Cf, Hf. reflexivity.
Qed.

(* non-vacuity: C10's demonstration history (pseudo header, static name, repeats, a nameless item,
   sensitive values, a lower-then-higher and a to-zero size change) satisfies both side conditions;
   the three blocks, cut into single octets, come out of the decoder model as submitted *)
Example hpack_both_ends_nonvacuous :
  history_ok demo_history = true /\ history_valid demo_history = true /\
  match enc_run (enc_new 4096) demo_history with
  | EOk (st, outs) =>
    let fragss := map (fun o => map (fun b => [b]) o) outs in
    fragmentation fragss outs /\
    match dec_h2_run (decoder_new 4096) demo_history fragss with
    | Some (fss, d') => fss = map (fun b => submitted (snd b)) demo_history /\
                        t_entries (d_table d') = et_entries (e_table st)
    | None => False
    end
  | EFail _ => False
  end.
Proof.
  vm_compute. split; [reflexivity|]. split; [reflexivity|]. split; [|auto].
  repeat constructor; (discriminate || reflexivity).
Qed.
