(* What the ledger simulation (SendFlowLedger.v) reads of a send-flow state: the connection window,
   the initial-window setting and, per record, (key, window, dead flag).  [shifted] compares two
   states in these terms; it composes, and the two updates of the record list, put and
   mark_untouched, are shifts. *)
From H2V Require Import Base.Tac Model.SendFlow Proofs.SendFlowLists.
Local Open Scope Z_scope.

Definition sproj (s : sstream) : N * (Z * bool) := (s_id s, (s_win s, s_dead s)).

(* same connection window and setting; every live record of [st'] stems from a live record of [st]
   under the same key, with its window raised by at most [b] of the key *)
Definition shifted (b : N -> Z) (st st' : fstate) : Prop :=
  c_win st' = c_win st /\ c_init st' = c_init st /\
  forall k s', find_s k (c_strs st') = Some s' -> s_dead s' = false ->
  exists s, find_s k (c_strs st) = Some s /\ s_dead s = false /\ s_win s' <= s_win s + b k.

Lemma shifted_same b st : (forall k, 0 <= b k) -> shifted b st st.
Proof.
  intros Hb. split; [reflexivity|]. split; [reflexivity|]. intros k s F Hd.
  exists s. specialize (Hb k). split; [exact F|]. split; [exact Hd|lia].
Qed.

Lemma shifted_trans b1 b2 b st st1 st2 :
  shifted b1 st st1 -> shifted b2 st1 st2 -> (forall k, b1 k + b2 k <= b k) -> shifted b st st2.
Proof.
  intros (W1 & I1 & H1) (W2 & I2 & H2) Hb. split; [congruence|]. split; [congruence|].
  intros k s2 F2 Hd2.
  destruct (H2 k s2 F2 Hd2) as (s1 & F1 & Hd1 & Hw1).
  destruct (H1 k s1 F1 Hd1) as (s & F & Hd & Hw).
  exists s. specialize (Hb k). split; [exact F|]. split; [exact Hd|lia].
Qed.

Lemma shifted_le b b' st st' : shifted b st st' -> (forall k, b k <= b' k) -> shifted b' st st'.
Proof.
  intros H Hb. apply (shifted_trans b (fun _ => 0) b' st st' st' H); [|intros k; specialize (Hb k); lia].
  apply shifted_same. reflexivity.
Qed.

Lemma shifted_put z st sid s s' :
  find_s sid (c_strs st) = Some s -> s_id s' = s_id s ->
  (s_dead s' = false -> s_dead s = false /\ s_win s' <= s_win s + z) ->
  shifted (fun k => if N.eqb sid k then z else 0) st (put st s').
Proof.
  intros F Hid Hs. split; [reflexivity|]. split; [reflexivity|]. intros k x Fx Hd.
  pose proof (find_s_id _ _ _ F) as Hk. rewrite <- Hid in Hk.
  unfold put, set_strs in Fx. cbn [c_strs] in Fx.
  destruct (N.eqb_spec sid k) as [<-|Hne].
  - rewrite <- Hk, (find_upd_same s' _ s) in Fx by (rewrite Hk; exact F).
    injection Fx as <-. exists s. split; [exact F|]. apply Hs, Hd.
  - rewrite find_upd_other in Fx by congruence. exists x. split; [exact Fx|]. split; [exact Hd|lia].
Qed.

Lemma shifted_put_same st sid s s' :
  find_s sid (c_strs st) = Some s -> sproj s' = sproj s -> shifted (fun _ => 0) st (put st s').
Proof.
  intros F [= Hi Hw Hd].
  apply (shifted_le (fun k => if N.eqb sid k then 0 else 0)); [|intros k; destruct (N.eqb sid k); lia].
  apply (shifted_put 0 st sid s s' F Hi). intros H. split; [congruence|lia].
Qed.

(* mark_untouched leaves live only records it did not change *)
Lemma shifted_mark z t st :
  shifted (fun k => if mem_touched k t then 0 else z) st (set_strs st (mark_untouched t (c_strs st))).
Proof.
  split; [reflexivity|]. split; [reflexivity|]. intros k s' F Hd. cbn [set_strs c_strs] in F.
  destruct (find_marked _ _ _ _ F) as (s & Fs & ->).
  destruct (mem_touched k t); [|discriminate]. exists s. split; [exact Fs|]. split; [exact Hd|lia].
Qed.
