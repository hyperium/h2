(* Property C01 over Model/DataPath.v.  Send side: an invariant over per-stream ghost values that every label keeps;
   from it, no message atom is lost, duplicated or reordered, END_STREAM goes out once and last, no assert fires.
   Then the composition with an abstract synchronised codec, and the receive queue: exactly once, in order, clean end. *)
From H2V Require Import Base.Tac Base.Bytes Model.StreamState Model.DataPath Proofs.StreamStateProofs.
Local Open Scope N_scope.

Lemma find_s_id : forall l sid s, find_s sid l = Some s -> ss_id s = sid.
Proof.
  induction l as [|a l IH]; cbn [find_s]; intros sid s H; [discriminate|].
  destruct (N.eqb_spec (ss_id a) sid) as [E|E]; [inversion H; subst; auto | eauto].
Qed.

Lemma find_upd : forall l s x,
  find_s x (upd_s s l) =
  if N.eqb (ss_id s) x then match find_s x l with Some _ => Some s | None => None end else find_s x l.
Proof.
  induction l as [|a l IH]; intros s x; cbn [find_s upd_s].
  - destruct (N.eqb (ss_id s) x); reflexivity.
  - destruct (N.eqb_spec (ss_id a) (ss_id s)) as [E|E]; cbn [find_s].
    + rewrite E. destruct (N.eqb (ss_id s) x); reflexivity.
    + rewrite IH. destruct (N.eqb_spec (ss_id a) x) as [F|F]; [|reflexivity].
      rewrite (proj2 (N.eqb_neq _ _)) by congruence. reflexivity.
Qed.

Lemma find_upd_same l s s0 : find_s (ss_id s) l = Some s0 -> find_s (ss_id s) (upd_s s l) = Some s.
Proof. intros H. rewrite find_upd, N.eqb_refl, H. reflexivity. Qed.

Lemma find_upd_other l s x : ss_id s <> x -> find_s x (upd_s s l) = find_s x l.
Proof. intros H. rewrite find_upd. destruct (N.eqb_spec (ss_id s) x); [contradiction|reflexivity]. Qed.

Lemma find_put st s s0 x :
  find_s (ss_id s) (d_strs st) = Some s0 ->
  find_s x (d_strs (put st s)) = if N.eqb (ss_id s) x then Some s else find_s x (d_strs st).
Proof.
  intros H. destruct (N.eqb_spec (ss_id s) x) as [<-|NE].
  - exact (find_upd_same _ _ _ H).
  - exact (find_upd_other _ _ _ NE).
Qed.

Lemma find_live_some l sid s :
  find_live sid l = Some s -> find_s (ss_id s) l = Some s /\ ss_gone s = false /\ ss_id s = sid.
Proof.
  unfold find_live. destruct (find_s sid l) as [s0|] eqn:F; [|discriminate].
  destruct (ss_gone s0) eqn:G; [discriminate|]. intros H; inversion H; subst s0.
  rewrite (find_s_id _ _ _ F). auto.
Qed.

Lemma lenB_app a b : lenB (a ++ b) = lenB a + lenB b.
Proof. unfold lenB. rewrite app_length. lia. Qed.

Lemma take_drop n (p : bytes) : takeB n p ++ dropB n p = p.
Proof. apply firstn_skipn. Qed.

Lemma lenB_take n p : n <= lenB p -> lenB (takeB n p) = n.
Proof. unfold lenB, takeB. intros H. rewrite firstn_length. lia. Qed.

Lemma lenB_drop n p : lenB (dropB n p) = lenB p - n.
Proof. unfold lenB, dropB. rewrite skipn_length. lia. Qed.

Lemma take_all n p : lenB p <= n -> takeB n p = p.
Proof. unfold lenB, takeB. intros H. apply firstn_all2. lia. Qed.

Lemma drop_all n p : lenB p <= n -> dropB n p = [].
Proof. unfold lenB, dropB. intros H. apply skipn_all2. lia. Qed.

Lemma drop_nonnil n p : n < lenB p -> is_nil (dropB n p) = false.
Proof.
  intros H. pose proof (lenB_drop n p) as L. destruct (dropB n p); [|reflexivity]. cbn in L. lia.
Qed.

Lemma is_nil_true {A} (l : list A) : is_nil l = true <-> l = [].
Proof. destruct l; cbn; split; congruence. Qed.

Lemma flat_app a b : flat (a ++ b) = flat a ++ flat b.
Proof. unfold flat. apply flat_map_app. Qed.

Lemma flat_cons f q : flat (f :: q) = flat1 f ++ flat q.
Proof. reflexivity. Qed.

Lemma flat_one f : flat [f] = flat1 f.
Proof. apply app_nil_r. Qed.

Lemma payloads_app a b : payloads (a ++ b) = payloads a ++ payloads b.
Proof. unfold payloads. apply flat_map_app. Qed.

Lemma payloads_cons f q : payloads (f :: q) = data1 f ++ payloads q.
Proof. reflexivity. Qed.

Definition is_aeos (a : atom) : bool := match a with AEos => true | _ => false end.
Definition noeos (l : list atom) : Prop := forallb (fun a => negb (is_aeos a)) l = true.

Lemma noeos_app a b : noeos (a ++ b) <-> noeos a /\ noeos b.
Proof. unfold noeos. rewrite forallb_app, andb_true_iff. tauto. Qed.

Lemma noeos_bytes p : noeos (map AByte p).
Proof. unfold noeos. induction p; cbn; auto. Qed.

Lemma flat1_shape f : exists body, flat1 f = body ++ eos_atom (frame_eos f) /\ noeos body.
Proof.
  destruct f as [k h e|p e|pr h|r]; [exists [AHead k h]|exists (map AByte p)|exists [APush pr h]|exists []];
    split; try reflexivity. apply noeos_bytes.
Qed.

Lemma flat1_reset f : is_reset f = true -> flat1 f = [].
Proof. destruct f; cbn; congruence. Qed.

Lemma flat_resets q : forallb is_reset q = true -> flat q = [].
Proof.
  induction q as [|f q IH]; cbn [forallb]; [reflexivity|].
  intros H. apply andb_true_iff in H as [A B]. rewrite flat_cons, (flat1_reset f A). apply IH, B.
Qed.

Fixpoint bytes_of (l : list atom) : bytes :=
  match l with [] => [] | AByte b :: l' => b :: bytes_of l' | _ :: l' => bytes_of l' end.

Lemma bytes_of_app a b : bytes_of (a ++ b) = bytes_of a ++ bytes_of b.
Proof. induction a as [|x a IH]; cbn; [reflexivity|]. destruct x; cbn; rewrite IH; reflexivity. Qed.

Lemma bytes_of_map p : bytes_of (map AByte p) = p.
Proof. induction p; cbn; congruence. Qed.

Lemma bytes_of_flat1 f : bytes_of (flat1 f) = data1 f.
Proof.
  destruct f as [k h e|p e|pr h|r]; cbn [flat1 data1]; try reflexivity; [destruct e; reflexivity|].
  rewrite bytes_of_app, bytes_of_map. destruct e; apply app_nil_r.
Qed.

Lemma bytes_of_flat l : bytes_of (flat l) = payloads l.
Proof.
  induction l as [|f l IH]; [reflexivity|].
  rewrite flat_cons, payloads_cons, bytes_of_app, bytes_of_flat1, IH. reflexivity.
Qed.

(* a frame split at len: the piece that goes out, and what stays behind the `Take` limit *)
Lemma split_atoms p eos len :
  flat1 (FData (takeB len p) (eos && (lenB p <=? len))) ++
  flat (if is_nil (dropB len p) then [] else [FData (dropB len p) eos]) = flat1 (FData p eos).
Proof.
  destruct (N.leb_spec (lenB p) len) as [H|H].
  - rewrite take_all, drop_all, andb_true_r by exact H. apply app_nil_r.
  - rewrite andb_false_r, (drop_nonnil len p H), flat_one. cbn [flat1 eos_atom].
    rewrite app_nil_r, app_assoc, <- map_app, take_drop. reflexivity.
Qed.

(* the invariant; ghost values: what was submitted / handled / whether cleared, per stream *)
Record inv (sub : N -> list sframe) (clr : N -> bool) (hd : N -> list sframe) (st : dstate) : Prop := mkInv {
  i_c1 : d_next st = None \/ d_last st = None;
  i_c2 : d_inflight st = IfNothing <-> codec_frame st = None;
  i_c3 : forall k, d_inflight st = IfData k ->
         exists cf s, codec_frame st = Some cf /\ cf_sid cf = k /\ find_s k (d_strs st) = Some s;
  i_str : forall sid s, find_s sid (d_strs st) = Some s ->
      ss_buf s = lenB (payloads (ss_q s)) + lenB (payloads (inflight_of sid st)) /\
      ss_cleared s = clr sid /\
      (ss_gone s = true -> ss_q s = [] /\ ss_buf s = 0) /\
      (ss_eos s = false -> noeos (flat (sub sid))) /\
      (ss_eos s = true -> exists body, flat (sub sid) = body ++ [AEos] /\ noeos body);
  i_none : forall sid, find_s sid (d_strs st) = None -> flat (sub sid) = [] /\ flat (hd sid) = [] /\ clr sid = false;
  i_main : forall sid,
      (clr sid = false ->
         flat (hd sid) ++ flat (inflight_of sid st) ++ flat (queue_of sid st) = flat (sub sid)) /\
      (clr sid = true ->
         (exists tail, flat (hd sid) ++ tail = flat (sub sid)) /\
         forallb is_reset (queue_of sid st) = true /\ inflight_of sid st = [])
}.

(* What [inv] says of one stream: S, H, c are its ghosts (as atoms), ifl its [inflight_of], r its record.
   Everything submitted is END_STREAM-free atoms followed by at most one AEos. *)
Definition stream_ok (S H : list atom) (c : bool) (ifl : list sframe) (r : option sstr) : Prop :=
  match r with
  | Some s =>
      ss_buf s = lenB (payloads (ss_q s)) + lenB (payloads ifl) /\
      ss_cleared s = c /\
      (ss_gone s = true -> ss_q s = [] /\ ss_buf s = 0) /\
      exists body, S = body ++ eos_atom (ss_eos s) /\ noeos body
  | None => S = [] /\ H = [] /\ c = false
  end /\
  let q := match r with Some s => ss_q s | None => [] end in
  (c = false -> H ++ flat ifl ++ flat q = S) /\
  (c = true -> (exists tail, H ++ tail = S) /\ forallb is_reset q = true /\ ifl = []).

Lemma inv_stream sub clr hd st x :
  inv sub clr hd st ->
  stream_ok (flat (sub x)) (flat (hd x)) (clr x) (inflight_of x st) (find_s x (d_strs st)).
Proof.
  intros [_ _ _ istr inone imain]. specialize (imain x). unfold queue_of in imain.
  destruct (find_s x (d_strs st)) as [s|] eqn:F; (split; [|exact imain]); [|apply inone, F].
  destruct (istr x s F) as (B & C & G & E0 & E1). repeat (split; [assumption|]).
  destruct (ss_eos s); [apply E1; reflexivity|]. exists (flat (sub x)). rewrite app_nil_r. auto.
Qed.

Lemma inv_found sub clr hd st s :
  inv sub clr hd st -> find_s (ss_id s) (d_strs st) = Some s ->
  stream_ok (flat (sub (ss_id s))) (flat (hd (ss_id s))) (clr (ss_id s)) (inflight_of (ss_id s) st) (Some s).
Proof. intros I F. rewrite <- F. apply inv_stream, I. Qed.

Lemma inv_of_streams sub clr hd st :
  (d_next st = None \/ d_last st = None) ->
  (d_inflight st = IfNothing <-> codec_frame st = None) ->
  (forall k, d_inflight st = IfData k ->
     exists cf s, codec_frame st = Some cf /\ cf_sid cf = k /\ find_s k (d_strs st) = Some s) ->
  (forall x, stream_ok (flat (sub x)) (flat (hd x)) (clr x) (inflight_of x st) (find_s x (d_strs st))) ->
  inv sub clr hd st.
Proof.
  intros C1 C2 C3 OK. constructor; auto.
  - intros x s F. specialize (OK x). rewrite F in OK. destruct OK as ((B & C & G & body & E & NB) & _).
    repeat (split; [assumption|]). rewrite E. split; intros Q; rewrite Q; cbn [eos_atom]; [rewrite app_nil_r|]; eauto.
  - intros x F. specialize (OK x). rewrite F in OK. apply OK.
  - intros x. unfold queue_of. apply OK.
Qed.

Lemma inv_ext sub clr hd sub' clr' hd' st :
  (forall x, flat (sub' x) = flat (sub x) /\ clr' x = clr x /\ flat (hd' x) = flat (hd x)) ->
  inv sub clr hd st -> inv sub' clr' hd' st.
Proof.
  intros E I. apply inv_of_streams; try apply I.
  intros x. destruct (E x) as (-> & -> & ->). apply inv_stream, I.
Qed.

Lemma inv_init chain : inv (fun _ => []) (fun _ => false) (fun _ => []) (init_state chain).
Proof.
  constructor; cbn; auto.
  - split; auto.
  - intros k H; discriminate.
  - intros sid s H; discriminate.
  - intros sid. split; [reflexivity|discriminate].
Qed.

Lemma inv_codec sub clr hd st st' :
  inv sub clr hd st ->
  d_strs st' = d_strs st ->
  (d_next st' = None \/ d_last st' = None) ->
  (d_inflight st' = IfNothing <-> codec_frame st' = None) ->
  (forall k, d_inflight st' = IfData k -> d_inflight st = IfData k /\ codec_frame st' = codec_frame st) ->
  (forall x, inflight_of x st' = inflight_of x st) ->
  inv sub clr hd st'.
Proof.
  intros I ES C1 C2 C3 IFL. apply inv_of_streams; auto.
  - intros k H. destruct (C3 k H) as (OLD & CF). rewrite ES, CF. exact (i_c3 _ _ _ _ I k OLD).
  - intros x. rewrite ES, IFL. apply inv_stream, I.
Qed.

Lemma inv_update sub clr hd st sub' clr' hd' st' t s1 :
  inv sub clr hd st ->
  (forall x, find_s x (d_strs st') = if N.eqb t x then Some s1 else find_s x (d_strs st)) ->
  (d_next st' = None \/ d_last st' = None) ->
  (d_inflight st' = IfNothing <-> codec_frame st' = None) ->
  (forall k, d_inflight st' = IfData k ->
     d_inflight st = IfData k /\ codec_frame st' = codec_frame st \/
     k = t /\ exists cf, codec_frame st' = Some cf /\ cf_sid cf = k) ->
  (forall x, N.eqb t x = false -> inflight_of x st' = inflight_of x st /\
                       flat (sub' x) = flat (sub x) /\ clr' x = clr x /\ flat (hd' x) = flat (hd x)) ->
  stream_ok (flat (sub' t)) (flat (hd' t)) (clr' t) (inflight_of t st') (Some s1) ->
  inv sub' clr' hd' st'.
Proof.
  intros I FN C1 C2 C3 OTH OK. apply inv_of_streams; auto.
  - intros k H. rewrite FN. destruct (C3 k H) as [(OLD & CF)|(-> & cf & CF & SID)].
    + destruct (i_c3 _ _ _ _ I k OLD) as (cf & s & A & B & F). exists cf. rewrite CF. destruct (N.eqb t k); eauto.
    + exists cf. rewrite N.eqb_refl. eauto.
  - intros x. rewrite FN. destruct (N.eqb t x) eqn:E; [apply N.eqb_eq in E as <-; exact OK|].
    destruct (OTH x E) as (-> & -> & -> & ->). apply inv_stream, I.
Qed.

Lemma inv_put sub clr hd st sub' clr' hd' s0 s1 :
  inv sub clr hd st ->
  find_s (ss_id s1) (d_strs st) = Some s0 ->
  (forall x, N.eqb (ss_id s1) x = false ->
     flat (sub' x) = flat (sub x) /\ clr' x = clr x /\ flat (hd' x) = flat (hd x)) ->
  stream_ok (flat (sub' (ss_id s1))) (flat (hd' (ss_id s1))) (clr' (ss_id s1)) (inflight_of (ss_id s1) st) (Some s1) ->
  inv sub' clr' hd' (put st s1).
Proof.
  intros I F0 OTH OK. apply (inv_update sub clr hd st _ _ _ _ (ss_id s1) s1 I); auto; try apply I.
  intros x. apply (find_put _ _ _ _ F0).
Qed.

(* queue_frame / send_data *)
Lemma stream_enqueue S H c ifl s f i b :
  stream_ok S H c ifl (Some s) ->
  (send_done s = true -> is_reset f = true) ->
  b = ss_buf s + lenB (data1 f) ->
  stream_ok (S ++ flat1 f) H c ifl (Some (mkSS i (ss_q s ++ [f]) b (ss_eos s || frame_eos f) (ss_cleared s) false)).
Proof.
  unfold send_done. intros ((B & C & _ & body & SH & NB) & M1 & M2) RS ->.
  split; [split; [|split; [|split]]|split]; cbn [ss_buf ss_q ss_cleared ss_gone ss_eos].
  - rewrite payloads_app, !lenB_app, B. cbn [payloads flat_map]. rewrite app_nil_r. apply N.add_shuffle0.
  - exact C.
  - discriminate.
  - rewrite SH. destruct (ss_eos s); cbn [orb].
    + rewrite (flat1_reset f), app_nil_r by (apply RS; reflexivity). eauto.
    + destruct (flat1_shape f) as (bf & -> & NF). cbn [eos_atom]. rewrite app_nil_r, app_assoc.
      exists (body ++ bf). split; [reflexivity|]. apply noeos_app. auto.
  - intros CF. rewrite <- (M1 CF), flat_app, flat_one, <- !app_assoc. reflexivity.
  - intros CT. destruct (M2 CT) as (TL & R & IFL).
    assert (RF : is_reset f = true) by (apply RS; rewrite C, CT; apply orb_true_r).
    rewrite (flat1_reset f RF), app_nil_r, forallb_app, R. cbn [forallb]. rewrite RF. auto.
Qed.

(* pop_frame with the codec empty: the head f of the queue goes out as f1, k stays behind in the codec *)
Lemma stream_pop S H c s f q' f1 k b :
  stream_ok S H c [] (Some s) -> ss_q s = f :: q' ->
  flat1 f1 ++ flat k = flat1 f -> (is_reset f = true -> k = []) ->
  b = ss_buf s - lenB (data1 f1) ->
  stream_ok S (H ++ flat1 f1) c k (Some (set_q s q' b)).
Proof.
  intros ((B & C & G & SH) & M1 & M2) Q E K ->. rewrite Q in *.
  split; [split; [|split; [|split]]|split]; cbn [set_q ss_buf ss_q ss_cleared ss_gone ss_eos]; auto.
  - (* the octets of the atom equation E give the byte account *)
    apply (f_equal bytes_of) in E. rewrite bytes_of_app, bytes_of_flat, !bytes_of_flat1 in E.
    rewrite payloads_cons, <- E, !lenB_app in B. cbn in B. lia.
  - intros GN. destruct (G GN) as [Z _]. discriminate.
  - intros CF. rewrite <- (M1 CF), flat_cons, <- E, <- !app_assoc. reflexivity.
  - intros CT. destruct (M2 CT) as (TL & R & _). cbn [forallb] in R. apply andb_true_iff in R as [R1 R2].
    rewrite (flat1_reset f R1) in E. apply app_eq_nil in E as [-> _]. rewrite app_nil_r, (K R1). auto.
Qed.

(* reclaim_frame_inner: the unwritten remainder comes back to the front of the queue *)
Lemma stream_requeue S H c r e s :
  stream_ok S H c [FData r e] (Some s) -> r <> [] ->
  ss_gone s = false /\ stream_ok S H c [] (Some (set_q s (FData r e :: ss_q s) (ss_buf s))).
Proof.
  intros ((B & C & G & SH) & M1 & M2) NE. cbn [payloads flat_map data1] in B. rewrite app_nil_r in B.
  assert (GN : ss_gone s = false).
  { destruct (ss_gone s); [|reflexivity]. destruct (G eq_refl) as [Q Z]. rewrite Q, Z in B.
    destruct r; [contradiction|]. cbn in B. lia. }
  split; [exact GN|]. split; [split; [|split; [|split]]|split]; cbn [set_q ss_buf ss_q ss_cleared ss_gone ss_eos]; auto.
  - rewrite payloads_cons, lenB_app. cbn [data1]. change (lenB (payloads [])) with 0. lia.
  - intros GG. congruence.
  - intros CF. rewrite <- (M1 CF), flat_one. reflexivity.
  - intros CT. destruct (M2 CT) as (_ & _ & Z). discriminate.
Qed.

Lemma stream_clear S H c ifl s i :
  stream_ok S H c ifl (Some s) -> stream_ok S H true [] (Some (mkSS i [] 0 (ss_eos s) true false)).
Proof.
  intros ((_ & _ & _ & SH) & M1 & M2).
  split; [split; [reflexivity|split; [reflexivity|split; [discriminate|exact SH]]]|split; [discriminate|]].
  intros _. split; [|auto]. destruct c; [apply M2; reflexivity|]. eexists. apply M1. reflexivity.
Qed.

Lemma stream_set_gone S H c ifl s g :
  stream_ok S H c ifl (Some s) -> (g = true -> ss_q s = [] /\ ss_buf s = 0) ->
  stream_ok S H c ifl (Some (set_gone s g)).
Proof. intros ((B & C & _ & SH) & M) G. split; [cbn; auto|exact M]. Qed.

Lemma stream_fresh S H c ifl i :
  stream_ok S H c ifl None -> stream_ok S H c ifl (Some (mkSS i [] 0 false false false)).
Proof.
  intros ((-> & -> & ->) & M1 & _). specialize (M1 eq_refl).
  split; [split; [|split; [|split]]|split]; cbn [ss_buf ss_q ss_cleared ss_gone ss_eos]; try discriminate; auto.
  - cbn [app] in M1. rewrite app_nil_r in M1. rewrite <- (bytes_of_flat ifl), M1. reflexivity.
  - exists []. split; reflexivity.
Qed.

Lemma inflight_none x st : (forall k, d_inflight st <> IfData k) -> inflight_of x st = [].
Proof.
  unfold inflight_of. destruct (d_inflight st) as [|k|]; [reflexivity| |reflexivity]. intros H. destruct (H k eq_refl).
Qed.

Lemma inflight_other x st k : d_inflight st = IfData k -> N.eqb k x = false -> inflight_of x st = [].
Proof. unfold inflight_of. intros -> ->. destruct (codec_frame st); reflexivity. Qed.

Lemma inflight_data x st k cf :
  d_inflight st = IfData k -> codec_frame st = Some cf ->
  inflight_of x st =
  if N.eqb k x then if is_nil (cf_rest cf) then [] else [FData (cf_rest cf) (cf_eos cf)] else [].
Proof. unfold inflight_of. intros -> ->. destruct (N.eqb k x), (is_nil (cf_rest cf)); reflexivity. Qed.

Lemma reclaim_spec sub clr hd st :
  inv sub clr hd st ->
  exists st', reclaim st = Ok st' [] /\ inv sub clr hd st' /\ d_last st' = None.
Proof.
  intros I. unfold reclaim. destruct (d_last st) as [cf|] eqn:L; [|exists st; auto].
  assert (NX : d_next st = None) by (destruct (i_c1 _ _ _ _ I) as [A|A]; [exact A|congruence]).
  assert (CF : codec_frame st = Some cf) by (unfold codec_frame; rewrite NX; exact L).
  set (st1 := set_codec st IfNothing (d_next st) None).
  assert (C2 : d_inflight st1 = IfNothing <-> codec_frame st1 = None).
  { unfold codec_frame. cbn. rewrite NX. tauto. }
  (* with nothing of a frame left inside the codec, forgetting the frame changes no account *)
  assert (DONE : (forall x, inflight_of x st = []) ->
            exists st', Ok st1 [] = Ok st' [] /\ inv sub clr hd st' /\ d_last st' = None).
  { intros IFL. exists st1. split; [reflexivity|]. split; [|reflexivity].
    apply (inv_codec sub clr hd st _ I); [reflexivity|right; reflexivity|exact C2|discriminate|].
    intros x. rewrite IFL. apply inflight_none. discriminate. }
  destruct (d_inflight st) as [|k|] eqn:IF.
  - apply (i_c2 _ _ _ _ I) in IF. congruence.
  - destruct (i_c3 _ _ _ _ I k IF) as (cf' & s & CF' & SID & F). rewrite CF in CF'. inversion CF'; subst cf'.
    pose proof (find_s_id _ _ _ F) as <-. rewrite SID, N.eqb_refl. cbn [negb].
    pose proof (fun x => inflight_data x st _ cf IF CF) as IFL.
    destruct (is_nil (cf_rest cf)) eqn:NIL.
    + apply DONE. intros x. rewrite IFL. destruct (N.eqb (ss_id s) x); reflexivity.
    + pose proof (inv_found _ _ _ _ _ I F) as OK. rewrite IFL, N.eqb_refl in OK.
      apply stream_requeue in OK as (GN & OK); [|intros Z; rewrite Z in NIL; discriminate].
      unfold find_live. cbn [d_strs set_codec st1]. rewrite F, GN.
      eexists. split; [reflexivity|]. split; [|auto].
      eapply (inv_update sub clr hd st _ _ _ _ (ss_id s) _ I); cbn [put set_strs d_next d_last d_inflight]; auto.
      * intros x. exact (find_put st1 (set_q s _ _) s x F).
      * discriminate.
      * intros x Hx. rewrite IFL, Hx. auto.
      * rewrite inflight_none by discriminate. exact OK.
  - apply DONE. intros x. apply inflight_none. rewrite IF. discriminate.
Qed.

Lemma codec_empty sub clr hd st :
  inv sub clr hd st -> d_next st = None -> d_last st = None ->
  d_inflight st = IfNothing /\ forall x, inflight_of x st = [].
Proof.
  intros I N L. assert (E : d_inflight st = IfNothing).
  { apply (i_c2 _ _ _ _ I). unfold codec_frame. rewrite N. exact L. }
  split; [exact E|]. intros x. apply inflight_none. rewrite E. discriminate.
Qed.

Lemma codec_buffer_data_spec st cf len :
  d_next st = None -> d_last st = None ->
  let st' := codec_buffer_data st cf len in
  d_strs st' = d_strs st /\ d_inflight st' = IfData (cf_sid cf) /\ codec_frame st' = Some cf /\
  (d_next st' = None \/ d_last st' = None).
Proof.
  intros NX LS. unfold codec_buffer_data, codec_frame. destruct (d_chain st <=? len); cbn; rewrite ?NX; auto.
Qed.

Definition sub_upd (sub : N -> list sframe) (l : label) : N -> list sframe := fun x => sub x ++ submitted1 x l.
Definition clr_upd (clr : N -> bool) (l : label) : N -> bool := fun x => clr x || cleared1 x l.
Definition hd_upd (hd : N -> list sframe) (o : list out) : N -> list sframe := fun x => hd x ++ handled x o.

Lemma ghost_same sub clr hd l o x :
  submitted1 x l = [] -> cleared1 x l = false -> flat (handled x o) = [] ->
  flat (sub_upd sub l x) = flat (sub x) /\ clr_upd clr l x = clr x /\ flat (hd_upd hd o x) = flat (hd x).
Proof.
  unfold sub_upd, clr_upd, hd_upd. intros -> -> H. rewrite app_nil_r, flat_app, H, app_nil_r, orb_false_r. auto.
Qed.

Lemma inv_quiet sub clr hd l o st :
  inv sub clr hd st ->
  (forall x, submitted1 x l = []) -> (forall x, cleared1 x l = false) -> (forall x, flat (handled x o) = []) ->
  inv (sub_upd sub l) (clr_upd clr l) (hd_upd hd o) st.
Proof. intros I A B C. apply (inv_ext sub clr hd); [|exact I]. intros x. apply ghost_same; auto. Qed.

Lemma ghost_pop sub clr hd l o t f x :
  submitted1 x l = [] -> cleared1 x l = false -> handled1 x o = (if N.eqb t x then [f] else []) ->
  flat (sub_upd sub l x) = flat (sub x) /\ clr_upd clr l x = clr x /\
  flat (hd_upd hd [o] x) = flat (hd x) ++ if N.eqb t x then flat1 f else [].
Proof.
  unfold sub_upd, clr_upd, hd_upd. cbn [handled flat_map]. intros -> -> ->.
  rewrite !app_nil_r, orb_false_r, flat_app. destruct (N.eqb t x); [rewrite flat_one|]; auto.
Qed.

Definition holds (P : dstate -> list out -> Prop) (r : outcome) : Prop :=
  match r with Ok st o => P st o | Stuck _ => True | Panic _ => False end.

Lemma pop_data_spec sub clr hd l st s p eos q' max_len avail win :
  inv sub clr hd st -> d_next st = None -> d_last st = None ->
  find_s (ss_id s) (d_strs st) = Some s -> ss_q s = FData p eos :: q' ->
  (forall x, submitted1 x l = []) -> (forall x, cleared1 x l = false) ->
  holds (fun st' o => inv (sub_upd sub l) (clr_upd clr l) (hd_upd hd o) st') (pop_data st s p eos q' max_len avail win).
Proof.
  intros INV NX LS F Q SUB CLR. destruct (codec_empty _ _ _ _ INV NX LS) as [IF0 IFL0].
  pose proof (inv_found _ _ _ _ _ INV F) as OK. rewrite IFL0 in OK.
  unfold pop_data. destruct ((0 <? lenB p) && (avail <=? 0)%Z); [exact I|].
  set (len := N.min (N.min (lenB p) max_len) (as_size avail)).
  destruct ((0 <? len) && (as_size win <? len)); [exact I|].
  assert (LE : len <= lenB p) by (etransitivity; apply N.le_min_l).
  destruct (N.ltb_spec (ss_buf s) len) as [BL|_].
  { destruct OK as ((B & _) & _). rewrite Q, payloads_cons, lenB_app in B. cbn [data1] in B. lia. }
  rewrite IF0. cbn [is_nothing negb holds].
  set (s1 := set_q s q' (ss_buf s - len)). set (cf := mkCF (ss_id s) (dropB len p) eos).
  destruct (codec_buffer_data_spec (put st s1) cf len NX LS) as (S1 & S2 & S3 & S4).
  pose proof (fun x => inflight_data x _ _ _ S2 S3) as IFL. cbn [cf cf_sid cf_rest cf_eos] in IFL.
  set (f1 := FData (takeB len p) _).
  pose proof (fun x => ghost_pop sub clr hd l (OFrame (ss_id s) f1) _ _ x (SUB x) (CLR x) eq_refl) as GH.
  apply (inv_update sub clr hd st _ _ _ _ (ss_id s) s1 INV); auto.
  - intros x. rewrite S1. exact (find_put st s1 s x F).
  - rewrite S2, S3. split; discriminate.
  - intros k Hk. rewrite S2 in Hk. inversion Hk. right. eauto.
  - intros x Hx. destruct (GH x) as (-> & -> & ->). rewrite IFL, IFL0, Hx, app_nil_r. auto.
  - destruct (GH (ss_id s)) as (-> & -> & ->). rewrite IFL, N.eqb_refl.
    apply (stream_pop _ _ _ _ _ _ _ _ _ OK Q); [apply split_atoms|discriminate|].
    cbn [f1 data1]. rewrite lenB_take by exact LE. reflexivity.
Qed.

(* a non-DATA frame leaves the head of a queue *)
Lemma pop_other_inv sub clr hd l o st s f q' :
  inv sub clr hd st -> d_next st = None -> d_last st = None ->
  find_s (ss_id s) (d_strs st) = Some s -> ss_q s = f :: q' -> is_data f = false ->
  (forall x, submitted1 x l = []) -> (forall x, cleared1 x l = false) ->
  (forall x, handled1 x o = if N.eqb (ss_id s) x then [f] else []) ->
  inv (sub_upd sub l) (clr_upd clr l) (hd_upd hd [o]) (put st (set_q s q' (ss_buf s))).
Proof.
  intros INV NX LS F Q ND SUB CLR HD. destruct (codec_empty _ _ _ _ INV NX LS) as [_ IFL0].
  pose proof (fun x => ghost_pop sub clr hd l o _ f x (SUB x) (CLR x) (HD x)) as GH.
  pose proof (inv_found _ _ _ _ _ INV F) as OK. rewrite IFL0 in OK.
  apply (inv_put sub clr hd st _ _ _ s _ INV); [exact F| |]; cbn [set_q ss_id].
  - intros x Hx. destruct (GH x) as (-> & -> & ->). rewrite Hx, app_nil_r. auto.
  - destruct (GH (ss_id s)) as (-> & -> & ->). rewrite N.eqb_refl, IFL0.
    apply (stream_pop _ _ _ _ _ _ _ _ _ OK Q); [apply app_nil_r|reflexivity|].
    destruct f; try discriminate ND; symmetry; apply N.sub_0_r.
Qed.

Lemma step_spec sub clr hd st l :
  inv sub clr hd st ->
  holds (fun st' o => inv (sub_upd sub l) (clr_upd clr l) (hd_upd hd o) st') (step st l).
Proof.
  intros INV.
  destruct l as [sid|sid|sid streaming p eos|sid f|sid| |sid max_len avail win|sid reason|sid| ]; cbn [step].
  - (* LNew *)
    destruct (find_s sid (d_strs st)) as [s|] eqn:F.
    + destruct (ss_gone s) eqn:G; [|exact I]. pose proof (find_s_id _ _ _ F) as <-.
      apply inv_quiet; try reflexivity. apply (inv_put sub clr hd st _ _ _ s (set_gone s false) INV F); auto.
      apply stream_set_gone; [exact (inv_found _ _ _ _ _ INV F)|discriminate].
    + apply inv_quiet; try reflexivity.
      apply (inv_update sub clr hd st _ _ _ _ sid (mkSS sid [] 0 false false false) INV); auto; try apply INV.
      apply stream_fresh. rewrite <- F. exact (inv_stream _ _ _ _ _ INV).
  - (* LRemove *)
    destruct (find_live sid (d_strs st)) as [s|] eqn:FL; [|exact I]. apply find_live_some in FL as (F & _ & <-).
    destruct (is_nil (ss_q s) && (ss_buf s =? 0)) eqn:G; [|exact I].
    apply andb_true_iff in G as [G1 G2]. apply is_nil_true in G1. apply N.eqb_eq in G2.
    apply inv_quiet; try reflexivity. apply (inv_put sub clr hd st _ _ _ s (set_gone s true) INV F); auto.
    apply stream_set_gone; [exact (inv_found _ _ _ _ _ INV F)|auto].
  - (* LSendData *)
    destruct (find_live sid (d_strs st)) as [s|] eqn:FL; [|exact I]. apply find_live_some in FL as (F & _ & <-).
    destruct (MAXW <? lenB p) eqn:BIG.
    { apply inv_quiet; try reflexivity; [exact INV|]. intros x. cbn [submitted1]. rewrite BIG, andb_false_r. reflexivity. }
    destruct streaming; cbn [negb].
    2:{ apply inv_quiet; try reflexivity; [exact INV|]. intros x. cbn [submitted1]. rewrite andb_false_r. reflexivity. }
    destruct (send_done s) eqn:SD; [exact I|].
    apply (inv_put sub clr hd st _ _ _ s _ INV); [exact F| |]; cbn [ss_id].
    + intros x Hx. apply ghost_same; cbn [submitted1]; [rewrite Hx|..]; reflexivity.
    + unfold sub_upd, clr_upd, hd_upd. cbn [submitted1 cleared1 handled flat_map handled1 app].
      rewrite N.eqb_refl, BIG. cbn [andb negb]. rewrite flat_app, flat_one, app_nil_r, orb_false_r.
      apply stream_enqueue; [exact (inv_found _ _ _ _ _ INV F)|congruence|reflexivity].
  - (* LQueue *)
    destruct (find_live sid (d_strs st)) as [s|] eqn:FL; [|exact I]. apply find_live_some in FL as (F & _ & <-).
    destruct (is_data f) eqn:ND; [exact I|].
    destruct (send_done s && negb (is_reset f)) eqn:SD; [exact I|].
    apply (inv_put sub clr hd st _ _ _ s _ INV); [exact F| |]; cbn [ss_id].
    + intros x Hx. apply ghost_same; cbn [submitted1]; [rewrite Hx|..]; reflexivity.
    + unfold sub_upd, clr_upd, hd_upd. cbn [submitted1 cleared1 handled flat_map].
      rewrite N.eqb_refl, flat_app, flat_one, app_nil_r, orb_false_r.
      apply stream_enqueue; [exact (inv_found _ _ _ _ _ INV F)| |].
      * intros D. rewrite D in SD. destruct (is_reset f); [reflexivity|discriminate].
      * destruct f; try discriminate ND; symmetry; apply N.add_0_r.
  - (* LClear *)
    destruct (find_live sid (d_strs st)) as [s|] eqn:FL; [|exact I]. apply find_live_some in FL as (F & _ & <-).
    set (l := LClear (ss_id s)). set (s1 := mkSS (ss_id s) [] 0 (ss_eos s) true false).
    assert (GH : forall x, N.eqb (ss_id s) x = false ->
              flat (sub_upd sub l x) = flat (sub x) /\ clr_upd clr l x = clr x /\ flat (hd_upd hd [] x) = flat (hd x)).
    { intros x Hx. apply ghost_same; cbn [l cleared1]; [|rewrite Hx|]; reflexivity. }
    assert (OK : stream_ok (flat (sub_upd sub l (ss_id s))) (flat (hd_upd hd [] (ss_id s))) (clr_upd clr l (ss_id s))
                           [] (Some s1)).
    { unfold sub_upd, clr_upd, hd_upd. cbn [l submitted1 cleared1 handled flat_map].
      rewrite N.eqb_refl, !app_nil_r, orb_true_r. exact (stream_clear _ _ _ _ _ _ (inv_found _ _ _ _ _ INV F)). }
    (* with nothing of the stream inside the codec, the codec is left alone *)
    assert (KEEP : inflight_of (ss_id s) st = [] -> inv (sub_upd sub l) (clr_upd clr l) (hd_upd hd []) (put st s1)).
    { intros Z. apply (inv_put sub clr hd st _ _ _ s s1 INV F GH). cbn [s1 ss_id]. rewrite Z. exact OK. }
    destruct (d_inflight st) as [|k|] eqn:IF; [|destruct (N.eqb_spec k (ss_id s)) as [->|NE]|].
    + apply KEEP, inflight_none. rewrite IF. discriminate.
    + (* the stream's frame is in flight: InFlightData::Drop *)
      apply (inv_update sub clr hd st _ _ _ _ (ss_id s) s1 INV); cbn [set_codec d_inflight].
      * intros x. exact (find_put st s1 s x F).
      * apply INV.
      * split; [discriminate|]. intros CF. destruct (i_c3 _ _ _ _ INV _ IF) as (cf & _ & CF' & _).
        change (codec_frame st = None) in CF. congruence.
      * discriminate.
      * intros x Hx. split; [|exact (GH x Hx)]. rewrite (inflight_other x st _ IF Hx). apply inflight_none. discriminate.
      * rewrite inflight_none by discriminate. exact OK.
    + apply KEEP, (inflight_other _ st k IF), N.eqb_neq, NE.
    + apply KEEP, inflight_none. rewrite IF. discriminate.
  - (* LReclaim *)
    destruct (reclaim_spec _ _ _ _ INV) as (st0 & -> & I0 & _). apply inv_quiet; try reflexivity. exact I0.
  - (* LPop *)
    destruct (reclaim_spec _ _ _ _ INV) as (st0 & -> & I0 & LS).
    destruct (d_next st0) eqn:NX; [exact I|].
    destruct (find_live sid (d_strs st0)) as [s|] eqn:FL; [|exact I]. apply find_live_some in FL as (F & _ & <-).
    destruct (ss_q s) as [|f q'] eqn:Q; [exact I|].
    destruct (codec_empty _ _ _ _ I0 NX LS) as [IF0 _].
    destruct f as [k h e|p e|pr h|r];
      try (rewrite IF0; apply (pop_other_inv sub clr hd _ _ st0 s _ q' I0 NX LS F Q); reflexivity).
    apply (pop_data_spec sub clr hd _ st0 s p e q' max_len avail win I0 NX LS F Q); reflexivity.
  - (* LPopReset *)
    destruct (reclaim_spec _ _ _ _ INV) as (st0 & -> & I0 & LS).
    destruct (d_next st0) eqn:NX; [exact I|].
    destruct (find_live sid (d_strs st0)) as [s|]; [|exact I].
    destruct (negb (is_nil (ss_q s))); [exact I|].
    destruct (codec_empty _ _ _ _ I0 NX LS) as [-> _]. cbn [is_nothing negb holds].
    apply inv_quiet; try reflexivity; [exact I0|].
    intros x. cbn [handled flat_map handled1]. destruct (N.eqb sid x); reflexivity.
  - (* LPopDropPush *)
    destruct (reclaim_spec _ _ _ _ INV) as (st0 & -> & I0 & LS).
    destruct (d_next st0) eqn:NX; [exact I|].
    destruct (find_live sid (d_strs st0)) as [s|] eqn:FL; [|exact I]. apply find_live_some in FL as (F & _ & <-).
    destruct (ss_q s) as [|[k h e|p e|pr h|r] q'] eqn:Q; try exact I.
    apply (pop_other_inv sub clr hd _ _ st0 s (FPush pr h) q' I0 NX LS F Q); reflexivity.
  - (* LFlushed *)
    destruct (d_next st) as [cf|] eqn:NX; [|exact I].
    assert (LS : d_last st = None) by (destruct (i_c1 _ _ _ _ INV) as [A|A]; [congruence|exact A]).
    assert (CF : codec_frame (set_codec st (d_inflight st) None (Some cf)) = codec_frame st).
    { unfold codec_frame. cbn. rewrite NX. reflexivity. }
    apply inv_quiet; try reflexivity. apply (inv_codec sub clr hd st); cbn [set_codec d_strs d_next d_inflight]; auto.
    + rewrite CF. apply INV.
    + intros x. unfold inflight_of. rewrite CF. reflexivity.
Qed.

Lemma step_inv sub clr hd st l st' o :
  inv sub clr hd st -> step st l = Ok st' o ->
  inv (sub_upd sub l) (clr_upd clr l) (hd_upd hd o) st'.
Proof. intros INV S. pose proof (step_spec _ _ _ _ l INV) as H. rewrite S in H. exact H. Qed.

Lemma submitted_app sid a b : submitted sid (a ++ b) = submitted sid a ++ submitted sid b.
Proof. unfold submitted. apply flat_map_app. Qed.

Lemma run_spec : forall ls sub clr hd st,
  inv sub clr hd st ->
  match run st ls with
  | ROk st' os =>
      inv (fun x => sub x ++ submitted x ls) (fun x => clr x || cleared x ls) (fun x => hd x ++ handled x os) st'
  | RFail _ r => forall n, r <> Panic n
  end.
Proof.
  induction ls as [|l ls IH]; intros sub clr hd st INV; cbn [run].
  - apply (inv_ext sub clr hd); [|exact INV]. intros x. cbn. rewrite !app_nil_r, orb_false_r. auto.
  - pose proof (step_spec _ _ _ _ l INV) as S.
    destruct (step st l) as [st1 o|k|k]; [|discriminate|destruct S]. apply IH in S.
    destruct (run st1 ls) as [st2 os|k r]; [|exact S].
    apply (inv_ext _ _ _ _ _ _ _) with (2 := S). intros x. unfold sub_upd, clr_upd, hd_upd, handled.
    cbn [submitted cleared flat_map existsb]. rewrite flat_map_app, !app_assoc, orb_assoc. auto.
Qed.

Lemma run_init_inv chain ls st os :
  run (init_state chain) ls = ROk st os ->
  inv (fun x => submitted x ls) (fun x => cleared x ls) (fun x => handled x os) st.
Proof. intros R. pose proof (run_spec ls _ _ _ _ (inv_init chain)) as I. rewrite R in I. exact I. Qed.

Lemma submitted_shape sub clr hd st sid :
  inv sub clr hd st -> exists body e, flat (sub sid) = body ++ eos_atom e /\ noeos body.
Proof.
  intros I. destruct (inv_stream _ _ _ _ sid I) as (A & _). destruct (find_s sid (d_strs st)) as [s|].
  - destruct A as (_ & _ & _ & body & E & NB). eauto.
  - destruct A as (-> & _). exists [], false. split; reflexivity.
Qed.

Lemma eos_is_last : forall (body pre rest : list atom) e,
  pre ++ AEos :: rest = body ++ eos_atom e -> noeos body -> noeos pre /\ rest = [].
Proof.
  unfold noeos. induction body as [|y b IH]; intros pre rest e E NB.
  - destruct e, pre as [|x [|? ?]]; inversion E. split; reflexivity.
  - destruct pre as [|x pre]; inversion E; subst; cbn [forallb] in *; [discriminate|].
    apply andb_true_iff in NB as [NY NB]. destruct (IH _ _ _ H1 NB) as [A B]. rewrite NY. auto.
Qed.

Theorem send_split_preserves : forall chain ls st os sid,
  run (init_state chain) ls = ROk st os ->
  (* nothing lost, duplicated or reordered: handed to the codec ++ still inside the codec ++ still queued *)
  (cleared sid ls = false ->
     flat (handled sid os) ++ flat (inflight_of sid st) ++ flat (queue_of sid st) = flat (submitted sid ls)) /\
  (* always (also after a reset dropped the queue): a prefix of what was submitted *)
  (exists tail, flat (handled sid os) ++ tail = flat (submitted sid ls)) /\
  (* END_STREAM goes out only with the last submitted atom ... *)
  (In AEos (flat (handled sid os)) -> flat (handled sid os) = flat (submitted sid ls)) /\
  (* ... and at most once *)
  (forall pre post, flat (handled sid os) = pre ++ AEos :: post -> noeos pre /\ post = []).
Proof.
  intros chain ls st os sid R. pose proof (run_init_inv _ _ _ _ R) as I.
  destruct (i_main _ _ _ _ I sid) as [M1 M2].
  assert (PRE : exists tail, flat (handled sid os) ++ tail = flat (submitted sid ls)).
  { destruct (cleared sid ls) eqn:C; [destruct (M2 eq_refl) as (T & _); exact T|].
    eexists. apply (M1 eq_refl). }
  destruct (submitted_shape _ _ _ _ sid I) as (body & e & SH & NB).
  split; [exact M1|]. split; [exact PRE|]. destruct PRE as (tail & PRE).
  assert (LAST : forall pre post, flat (handled sid os) = pre ++ AEos :: post -> noeos pre /\ post = [] /\ tail = []).
  { intros pre post E. rewrite E, SH, <- app_assoc in PRE. destruct (eos_is_last _ _ _ _ PRE NB) as (A & B).
    apply app_eq_nil in B as [-> ->]. auto. }
  split.
  - intros IN. apply in_split in IN as (pre & post & E). destruct (LAST _ _ E) as (_ & _ & ->).
    rewrite app_nil_r in PRE. exact PRE.
  - intros pre post E. destruct (LAST _ _ E) as (A & B & _). auto.
Qed.

Lemma payloads_handled_sent sid os : payloads (handled sid os) = payloads (sent sid os).
Proof.
  unfold handled, sent. induction os as [|o os IH]; [reflexivity|]. cbn [flat_map].
  rewrite !payloads_app, IH. f_equal. destruct o as [s f|s pr h|b]; cbn [handled1 sent1]; try reflexivity.
  destruct (N.eqb s sid); reflexivity.
Qed.

Theorem send_bytes_preserved : forall chain ls st os sid,
  run (init_state chain) ls = ROk st os ->
  (cleared sid ls = false ->
     payloads (sent sid os) ++ payloads (inflight_of sid st) ++ payloads (queue_of sid st)
     = payloads (submitted sid ls)) /\
  (exists tail, payloads (sent sid os) ++ tail = payloads (submitted sid ls)).
Proof.
  intros chain ls st os sid R. destruct (send_split_preserves _ _ _ _ sid R) as (A & (tail & B) & _).
  rewrite <- payloads_handled_sent. split.
  - intros C. specialize (A C). apply (f_equal bytes_of) in A.
    rewrite !bytes_of_app, !bytes_of_flat in A. exact A.
  - exists (bytes_of tail). apply (f_equal bytes_of) in B. rewrite bytes_of_app, !bytes_of_flat in B. exact B.
Qed.

Definition strict_prefix (pre bs : bytes) : Prop := exists suf, suf <> [] /\ pre ++ suf = bs.

Definition codec_sync {F ES DS} (c : wcodec F ES DS) (R : ES -> DS -> Prop) : Prop :=
  (forall ds, wc_dec c ds [] = None) /\
  forall es ds f bs es', R es ds -> wc_enc c es f = (bs, es') ->
    bs <> [] /\
    (forall rest, exists ds', wc_dec c ds (bs ++ rest) = Some (f, rest, ds') /\ R es' ds') /\
    (forall pre, strict_prefix pre bs -> wc_dec c ds pre = None).

Lemma app_split {A} : forall (a b c d : list A), a ++ b = c ++ d ->
  (exists l, a = c ++ l /\ d = l ++ b) \/ (exists l, l <> [] /\ c = a ++ l /\ b = l ++ d).
Proof.
  intros a b c d E. destruct (app_eq_app _ _ _ _ E) as (l & [[P Q]|[P Q]]); [left; eauto|].
  destruct l as [|x l]; [left; exists []|right; exists (x :: l)].
  - rewrite app_nil_r in P. subst. rewrite app_nil_r. auto.
  - split; [discriminate|auto].
Qed.

(* whatever prefix w of the sender's octet stream has arrived, the reader has produced a prefix of the
   frames, in order, and nothing else *)
Theorem wire_prefix {F ES DS} (c : wcodec F ES DS) (R : ES -> DS -> Prop) :
  codec_sync c R ->
  forall fs es ds w tail fuel,
  R es ds -> w ++ tail = enc_all c es fs -> (length fs < fuel)%nat ->
  exists fs1 fs2, fs = fs1 ++ fs2 /\ dec_all c fuel ds w = fs1.
Proof.
  intros [EMP SY]. induction fs as [|f fs IH]; intros es ds w tail fuel RR E FU.
  - cbn in E. apply app_eq_nil in E. destruct E as [-> _]. exists [], []. split; [reflexivity|].
    destruct fuel; [reflexivity|]. cbn. rewrite EMP. reflexivity.
  - cbn [enc_all] in E. destruct (wc_enc c es f) as [bs es'] eqn:EN.
    destruct (SY _ _ _ _ _ RR EN) as (NE & DEC & PRE).
    destruct fuel as [|fuel]; [destruct (Nat.nlt_0_r _ FU)|]. apply Nat.succ_lt_mono in FU.
    destruct (app_split _ _ _ _ E) as [(l & A1 & A2)|(l & A0 & A1 & A2)].
    + subst w. destruct (DEC l) as (ds' & D & RR'). cbn [dec_all]. rewrite D.
      destruct (IH es' ds' l tail fuel RR' (eq_sym A2) FU) as (fs1 & fs2 & S1 & S2).
      exists (f :: fs1), fs2. split; [cbn; congruence|]. rewrite S2. reflexivity.
    + exists [], (f :: fs). split; [reflexivity|]. cbn [dec_all].
      rewrite (PRE w); [reflexivity|]. exists l. auto.
Qed.

Definition frames_of (sid : N) (l : list (N * sframe)) : list sframe :=
  flat_map (fun x => if N.eqb (fst x) sid then [snd x] else []) l.

Lemma frames_of_app sid a b : frames_of sid (a ++ b) = frames_of sid a ++ frames_of sid b.
Proof. unfold frames_of. apply flat_map_app. Qed.

Lemma frames_of_wire sid os : frames_of sid (wire_frames os) = sent sid os.
Proof.
  unfold frames_of, wire_frames, sent. induction os as [|o os IH]; [reflexivity|].
  cbn [flat_map]. rewrite flat_map_app, IH. f_equal.
  destruct o as [s f|s pr h|b]; cbn; try reflexivity. rewrite app_nil_r. reflexivity.
Qed.

Definition no_drop (sid : N) (os : list out) : Prop := handled sid os = sent sid os.

(* the receiver's frame sequence for stream sid carries a prefix of what was submitted on sid *)
Theorem wire_roundtrip {ES DS} (c : wcodec (N * sframe) ES DS) (R : ES -> DS -> Prop) :
  codec_sync c R ->
  forall chain ls st os es ds w tail sid,
  run (init_state chain) ls = ROk st os ->
  R es ds -> w ++ tail = enc_all c es (wire_frames os) ->
  let rx := dec_all c (S (length (wire_frames os))) ds w in
  (exists later, rx ++ later = wire_frames os) /\
  (exists more, payloads (frames_of sid rx) ++ more = payloads (submitted sid ls)) /\
  (no_drop sid os -> exists more, flat (frames_of sid rx) ++ more = flat (submitted sid ls)).
Proof.
  intros SY chain ls st os es ds w tail sid RUN RR E rx.
  destruct (wire_prefix c R SY (wire_frames os) es ds w tail _ RR E (Nat.lt_succ_diag_r _)) as (fs1 & fs2 & S1 & S2).
  fold rx in S2. subst fs1.
  split; [exists fs2; auto|].
  assert (FR : sent sid os = frames_of sid rx ++ frames_of sid fs2).
  { rewrite <- frames_of_wire, S1, frames_of_app. reflexivity. }
  split.
  - destruct (send_bytes_preserved _ _ _ _ sid RUN) as (_ & (t & B)). rewrite FR, payloads_app in B.
    exists (payloads (frames_of sid fs2) ++ t). rewrite app_assoc. exact B.
  - intros ND. destruct (send_split_preserves _ _ _ _ sid RUN) as (_ & (t & B) & _).
    rewrite ND, FR, flat_app in B. exists (flat (frames_of sid fs2) ++ t). rewrite app_assoc. exact B.
Qed.

(* a (toy) instance showing the interface is inhabited: one octet of length, then the frame number;
   frames are numbers below 256 here *)
Definition toy_codec : wcodec N unit unit :=
  mkWC N unit unit (fun _ f => ([1; f], tt))
       (fun _ bs => match bs with 1 :: f :: rest => Some (f, rest, tt) | _ => None end).

Lemma toy_sync : codec_sync toy_codec (fun _ _ => True).
Proof.
  split; [reflexivity|]. intros es ds f bs es' _ E. cbn in E. inversion E; subst. split; [discriminate|]. split.
  - intros rest. exists tt. auto.
  - intros pre (suf & NE & P). destruct pre as [|a [|b pre]]; cbn in *; try reflexivity.
    + inversion P; subst. reflexivity.
    + inversion P. destruct pre; [|discriminate]. cbn in *. subst suf. congruence.
Qed.

Lemma find_r_id : forall l sid s, find_r sid l = Some s -> rs_id s = sid.
Proof.
  induction l as [|a l IH]; cbn [find_r]; intros sid s H; [discriminate|].
  destruct (N.eqb_spec (rs_id a) sid) as [E|E]; [inversion H; subst; auto | eauto].
Qed.

Lemma find_r_upd : forall l s x,
  find_r x (upd_r s l) =
  if N.eqb (rs_id s) x then match find_r x l with Some _ => Some s | None => None end else find_r x l.
Proof.
  induction l as [|a l IH]; intros s x; cbn [find_r upd_r].
  - destruct (N.eqb (rs_id s) x); reflexivity.
  - destruct (N.eqb_spec (rs_id a) (rs_id s)) as [E|E]; cbn [find_r].
    + rewrite E. destruct (N.eqb (rs_id s) x); reflexivity.
    + rewrite IH. destruct (N.eqb_spec (rs_id a) x) as [F|F]; [|reflexivity].
      rewrite (proj2 (N.eqb_neq _ _)) by congruence. reflexivity.
Qed.

Lemma find_r_del : forall l sid x,
  find_r x (del_r sid l) = if N.eqb sid x then None else find_r x l.
Proof.
  unfold del_r. induction l as [|a l IH]; intros sid x; cbn [find_r filter].
  - destruct (N.eqb sid x); reflexivity.
  - destruct (N.eqb_spec (rs_id a) sid) as [E|E]; cbn [negb find_r]; rewrite IH.
    + destruct (N.eqb_spec sid x) as [F|F]; [reflexivity|].
      rewrite (proj2 (N.eqb_neq _ _)) by congruence. reflexivity.
    + destruct (N.eqb_spec (rs_id a) x) as [F|F]; [|reflexivity].
      rewrite (proj2 (N.eqb_neq _ _)) by congruence. reflexivity.
Qed.

Lemma rqueue_upd st sid r0 q x :
  find_r sid st = Some r0 ->
  rqueue_of x (upd_r (mkRS sid q) st) = if N.eqb sid x then q else rqueue_of x st.
Proof.
  intros F. unfold rqueue_of. rewrite find_r_upd. cbn [rs_id].
  destruct (N.eqb_spec sid x) as [E|E]; [subst; rewrite F|]; reflexivity.
Qed.

Lemma taken_app x a b : taken x (a ++ b) = taken x a ++ taken x b.
Proof. unfold taken. apply flat_map_app. Qed.

Lemma taken_one x o : taken x [o] = taken1 x o.
Proof. apply app_nil_r. Qed.

Lemma taken_dropped sid x q : taken x (map (RDropped sid) q) = if N.eqb sid x then q else [].
Proof.
  unfold taken. induction q as [|e q IH]; cbn [map flat_map taken1].
  - destruct (N.eqb sid x); reflexivity.
  - rewrite IH. destruct (N.eqb sid x); reflexivity.
Qed.

Lemma taken_on_empty x sid s : taken x (on_empty sid s) = [].
Proof. unfold on_empty. destruct (ensure_recv_open s) as [|[|]| | | |]; reflexivity. Qed.

Lemma lead_skip q : lead_info q ++ skip_info q = q.
Proof. induction q as [|e q IH]; [reflexivity|]. destruct e; cbn; congruence. Qed.

Lemma rq_take st sid r d q' o x :
  find_r sid st = Some r -> rs_q r = d ++ q' -> taken x o = (if N.eqb sid x then d else []) ->
  taken x o ++ rqueue_of x (upd_r (mkRS sid q') st) = rqueue_of x st.
Proof.
  intros F Q ->. rewrite (rqueue_upd st sid r q' x F). unfold rqueue_of.
  destruct (N.eqb_spec sid x) as [<-|]; [rewrite F; auto|reflexivity].
Qed.

Lemma rq_push st sid e code st' o x :
  push_ev st sid e code = ROkR st' o ->
  taken x o ++ rqueue_of x st' = rqueue_of x st ++ if N.eqb sid x then [e] else [].
Proof.
  unfold push_ev. destruct (find_r sid st) as [r|] eqn:F; [|discriminate]. intros H. injection H as <- <-.
  rewrite (rqueue_upd st sid r _ x F). unfold rqueue_of.
  destruct (N.eqb_spec sid x) as [<-|]; [rewrite F|rewrite app_nil_r]; reflexivity.
Qed.

(* one step: what left the queue (delivered or discarded) ++ the new queue = old queue ++ what arrived *)
Lemma rstep_conserve st l st' o x :
  rstep st l = ROkR st' o ->
  taken x o ++ rqueue_of x st' = rqueue_of x st ++ pushed1 x l.
Proof.
  intros S.
  destruct l as [sid|sid|sid info h|sid p eos|sid h|sid h|sid|sid s|sid s|sid s|sid s|sid|sid s];
    cbn [rstep pushed1] in S |- *.
  - (* RNew *)
    destruct (find_r sid st) eqn:F; [discriminate|]. injection S as <- <-. unfold rqueue_of. cbn [find_r rs_id rs_q].
    rewrite app_nil_r. destruct (N.eqb_spec sid x) as [<-|]; [rewrite F|]; reflexivity.
  - (* RRemove *)
    destruct (find_r sid st) as [r|] eqn:F; [|discriminate]. injection S as <- <-. unfold rqueue_of.
    rewrite app_nil_r, taken_dropped, find_r_del.
    destruct (N.eqb_spec sid x) as [<-|]; [rewrite F; apply app_nil_r|reflexivity].
  - exact (rq_push _ _ _ _ _ _ x S).
  - (* RRecvData *)
    destruct (is_nil p && negb eos).
    + destruct (find_r sid st); [|discriminate]. injection S as <- <-. rewrite andb_false_r. symmetry. apply app_nil_r.
    + rewrite andb_true_r. exact (rq_push _ _ _ _ _ _ x S).
  - exact (rq_push _ _ _ _ _ _ x S).
  - exact (rq_push _ _ _ _ _ _ x S).
  - (* RClearRecv *)
    destruct (find_r sid st) as [r|] eqn:F; [|discriminate]. injection S as <- <-. rewrite app_nil_r.
    apply (rq_take st sid r (rs_q r) [] _ x F); [symmetry; apply app_nil_r|apply taken_dropped].
  - (* RPollData *)
    destruct (find_r sid st) as [r|] eqn:F; [|discriminate]. rewrite app_nil_r.
    destruct (rs_q r) as [|[h|h|p|h] q'] eqn:Q; injection S as <- <-; try reflexivity.
    + rewrite taken_on_empty. reflexivity.
    + apply (rq_take st sid r [EData p] q' _ x F Q), taken_one.
  - (* RPollTrailers *)
    destruct (find_r sid st) as [r|] eqn:F; [|discriminate]. rewrite app_nil_r.
    destruct (rs_q r) as [|[h|h|p|h] q'] eqn:Q; injection S as <- <-; try reflexivity.
    + rewrite taken_on_empty. reflexivity.
    + apply (rq_take st sid r [ETrailers h] q' _ x F Q), taken_one.
  - (* RPollResponse: the interim heads in front are discarded with the call *)
    destruct (find_r sid st) as [r|] eqn:F; [|discriminate]. rewrite app_nil_r.
    pose proof (lead_skip (rs_q r)) as LS.
    assert (TK : forall z, taken x (map (RDropped sid) (lead_info (rs_q r)) ++ [z])
                  = if N.eqb sid x then lead_info (rs_q r) ++ taken1 x z else taken1 x z).
    { intros z. rewrite taken_app, taken_dropped, taken_one. destruct (N.eqb sid x); reflexivity. }
    destruct (skip_info (rs_q r)) as [|[h|h|p|h] q'] eqn:SK; try discriminate.
    + assert (Z : exists z, taken1 x z = [] /\
                  ROkR (upd_r (mkRS sid []) st) (map (RDropped sid) (lead_info (rs_q r)) ++ [z]) = ROkR st' o).
      { destruct (ensure_recv_open s) as [|[|]| | | |]; eexists; (split; [|exact S]); reflexivity. }
      destruct Z as (z & TZ & Z). injection Z as <- <-.
      apply (rq_take st sid r (lead_info (rs_q r)) [] _ x F); [symmetry; exact LS|].
      rewrite TK, TZ, app_nil_r. reflexivity.
    + injection S as <- <-. apply (rq_take st sid r (lead_info (rs_q r) ++ [EHead h]) q' _ x F).
      * rewrite <- app_assoc. symmetry. exact LS.
      * rewrite TK. cbn [taken1]. destruct (N.eqb sid x); reflexivity.
  - (* RPollInfo *)
    destruct (find_r sid st) as [r|] eqn:F; [|discriminate]. rewrite app_nil_r.
    destruct (rs_q r) as [|[h|h|p|h] q'] eqn:Q; injection S as <- <-; try reflexivity;
      try (rewrite taken_on_empty; reflexivity).
    apply (rq_take st sid r [EInfo h] q' _ x F Q), taken_one.
  - (* RTakeRequest *)
    destruct (find_r sid st) as [r|] eqn:F; [|discriminate]. rewrite app_nil_r.
    destruct (rs_q r) as [|[h|h|p|h] q'] eqn:Q; try discriminate. injection S as <- <-.
    apply (rq_take st sid r [EHead h] q' _ x F Q), taken_one.
  - (* RIsEndStream *)
    destruct (find_r sid st) as [r|] eqn:F; [|discriminate]. injection S as <- <-. symmetry. apply app_nil_r.
Qed.

Lemma pushed_app sid a b : pushed sid (a ++ b) = pushed sid a ++ pushed sid b.
Proof. unfold pushed. apply flat_map_app. Qed.

Lemma rrun_conserve : forall ls st0 st os sid,
  rrun st0 ls = RROk st os -> taken sid os ++ rqueue_of sid st = rqueue_of sid st0 ++ pushed sid ls.
Proof.
  induction ls as [|l ls IH]; intros st0 st os sid R; cbn [rrun] in R.
  - injection R as <- <-. symmetry. apply app_nil_r.
  - destruct (rstep st0 l) as [st1 o|k|k] eqn:S; try discriminate.
    destruct (rrun st1 ls) as [st2 os'|k r] eqn:R'; [|discriminate]. injection R as <- <-.
    change (pushed sid (l :: ls)) with (pushed1 sid l ++ pushed sid ls).
    rewrite taken_app, <- app_assoc, (IH _ _ _ sid R'), !app_assoc. f_equal. exact (rstep_conserve _ _ _ _ sid S).
Qed.

(* every event is delivered or (on the application's own request) discarded exactly once, in arrival order *)
Theorem recv_exactly_once : forall ls st os sid,
  rrun [] ls = RROk st os -> taken sid os ++ rqueue_of sid st = pushed sid ls.
Proof. intros ls st os sid R. apply (rrun_conserve ls [] st os sid R). Qed.

Lemma delivered_taken sid os :
  existsb (dropped1 sid) os = false -> delivered sid os = taken sid os.
Proof.
  unfold delivered, taken. induction os as [|o os IH]; [reflexivity|]. cbn [existsb flat_map].
  intros H. apply orb_false_iff in H. destruct H as [H1 H2]. rewrite (IH H2). f_equal.
  destruct o; cbn in *; try reflexivity. rewrite H1. reflexivity.
Qed.

Lemma clean_means_end_stream s :
  ensure_recv_open s = RBool false -> is_recv_end_stream s = true \/ s = ReservedLocal.
Proof.
  destruct s as [| | |a b|a|a|c]; cbn; try discriminate; auto. destruct c; cbn; try discriminate; auto.
Qed.

(* poll_data returns None only when no DATA is at the head; on a drained queue only when the stream
   state says END_STREAM was received or is ReservedLocal (the third Ok(false) arm of ensure_recv_open), no
   error being recorded - and then everything that arrived has been handed out *)
Theorem recv_clean_end : forall ls st os sid s st',
  rrun [] ls = RROk st os ->
  rstep st (RPollData sid s) = ROkR st' [RNone sid] ->
  (forall p q, rqueue_of sid st <> EData p :: q) /\
  (rqueue_of sid st = [] ->
     ensure_recv_open s = RBool false /\ (is_recv_end_stream s = true \/ s = ReservedLocal) /\
     taken sid os = pushed sid ls).
Proof.
  intros ls st os sid s st' R S. cbn [rstep] in S. unfold rqueue_of.
  destruct (find_r sid st) as [r|] eqn:F; [|discriminate].
  destruct (rs_q r) as [|e q'] eqn:Q.
  - split; [intros p q H; discriminate|]. intros _.
    assert (E : ensure_recv_open s = RBool false).
    { unfold on_empty in S. destruct (ensure_recv_open s) as [|[|]| | | |]; inversion S; reflexivity. }
    split; [exact E|]. split; [apply clean_means_end_stream, E|].
    pose proof (recv_exactly_once _ _ _ sid R) as C. unfold rqueue_of in C. rewrite F, Q, app_nil_r in C. exact C.
  - split; [|intros H; discriminate]. intros p q H. inversion H; subst. discriminate.
Qed.

Theorem recv_trailers_clean_end : forall st sid s st',
  rstep st (RPollTrailers sid s) = ROkR st' [RNone sid] ->
  rqueue_of sid st = [] /\ ensure_recv_open s = RBool false.
Proof.
  intros st sid s st' S. cbn [rstep] in S. unfold rqueue_of.
  destruct (find_r sid st) as [r|] eqn:F; [|discriminate].
  destruct (rs_q r) as [|e q'] eqn:Q.
  - split; [reflexivity|]. unfold on_empty in S. destruct (ensure_recv_open s) as [|[|]| | | |]; inversion S; reflexivity.
  - destruct e; discriminate.
Qed.

(* an errored stream never ends cleanly: once the queue is drained the read reports the error *)
Theorem recv_error_never_clean : forall st sid r s e,
  find_r sid st = Some r -> rs_q r = [] -> ensure_recv_open s = RProtoErr e ->
  rstep st (RPollData sid s) = ROkR st [RErr sid] /\ rstep st (RPollTrailers sid s) = ROkR st [RErr sid].
Proof.
  intros st sid r s e F Q E. cbn [rstep]. rewrite F, Q. unfold on_empty. rewrite E. auto.
Qed.

(* non-vacuity: concrete runs (evaluated by the kernel) *)

Definition hd0 : sframe := FHeaders HkHead [([58;112], [47])] false.

(* two interleaved streams; stream 1's 5-byte END_STREAM body is split by a 1-byte window; the rest
   waits inside the codec, is reclaimed, and goes out after stream 3's DATA; END_STREAM on the last piece *)
Example ex_interleaved_split :
  exists st os,
    run (init_state 256)
      [LNew 1; LNew 3; LQueue 1 hd0; LSendData 1 true [10;11;12;13;14] true; LQueue 3 hd0;
       LSendData 3 true [20;21;22] false;
       LPop 1 16384 5 65535; LPop 3 16384 3 65535;
       LPop 1 16384 1 65535;              (* window of one byte *)
       LPop 3 16384 3 65535;
       LPop 1 16384 4 65534] = ROk st os /\
    wire_frames os = [(1, hd0); (3, hd0); (1, FData [10] false); (3, FData [20;21;22] false);
                      (1, FData [11;12;13;14] true)] /\
    flat (sent 1 os) = flat (submitted 1 [LQueue 1 hd0; LSendData 1 true [10;11;12;13;14] true]) /\
    d_inflight st = IfData 1 /\ queue_of 1 st = [].
Proof. eexists. eexists. vm_compute. repeat split; reflexivity. Qed.

(* a frame at or above the chain threshold stays in Encoder.next while it is written; after the flush it
   moves to last_data_frame and the part beyond max_frame_size is reclaimed to the FRONT of the queue,
   before the trailers *)
Example ex_partial_write_reclaim :
  exists st os,
    run (init_state 2)
      [LNew 1; LQueue 1 hd0; LSendData 1 true [1;2;3;4;5;6;7] false; LQueue 1 (FHeaders HkTrailers [] true);
       LPop 1 3 100 100; LPop 1 3 100 100; LFlushed; LReclaim] = ROk st os /\
    wire_frames os = [(1, hd0); (1, FData [1;2;3] false)] /\
    queue_of 1 st = [FData [4;5;6;7] false; FHeaders HkTrailers [] true] /\
    d_inflight st = IfNothing.
Proof. eexists. eexists. vm_compute. repeat split; reflexivity. Qed.

(* while the rest of the frame is still inside the codec the scheduler cannot take the trailers *)
Example ex_no_overtaking :
  run (init_state 2)
    [LNew 1; LQueue 1 hd0; LSendData 1 true [1;2;3;4;5;6;7] false; LQueue 1 (FHeaders HkTrailers [] true);
     LPop 1 3 100 100; LPop 1 3 100 100; LPop 1 3 100 100] = RFail 6 (Stuck 13).
Proof. vm_compute. reflexivity. Qed.

(* a reset in mid-frame: the queue is cleared, the codec's remainder is dropped (InFlightData::Drop), the
   peer is sent a strict prefix and RST_STREAM, and no END_STREAM *)
Example ex_reset_mid_frame :
  exists st os,
    run (init_state 2)
      [LNew 1; LQueue 1 hd0; LSendData 1 true [1;2;3;4;5;6;7] true;
       LPop 1 3 100 100; LPop 1 3 100 100; LClear 1; LQueue 1 (FReset 8); LFlushed; LPop 1 3 0 0] = ROk st os /\
    wire_frames os = [(1, hd0); (1, FData [1;2;3] false); (1, FReset 8)] /\
    d_inflight st = IfNothing /\ ~ In AEos (flat (sent 1 os)).
Proof.
  eexists. eexists. vm_compute. repeat split; try reflexivity.
  intros [H|[H|[H|[H|[]]]]]; discriminate.
Qed.

(* receive side: head, two body events, trailers; an interleaved second stream; clean end exactly at the end *)
Example ex_recv_in_order :
  exists st os,
    rrun [] [RNew 1; RNew 3; RRecvHeaders 1 false [([58;115], [50])]; RRecvData 1 [1;2] false;
             RRecvData 3 [9] false; RRecvData 1 [] false; RRecvData 1 [3] false; RRecvTrailers 1 [];
             RPollResponse 1 (Open Streaming Streaming); RPollData 1 (Closed EndStream);
             RPollData 3 (Open Streaming Streaming); RPollData 1 (Closed EndStream);
             RPollData 1 (Closed EndStream); RIsEndStream 1 (Closed EndStream);
             RPollTrailers 1 (Closed EndStream);
             RIsEndStream 1 (Closed EndStream); RPollData 1 (Closed EndStream); RPollTrailers 1 (Closed EndStream)]
      = RROk st os /\
    delivered 1 os = [EHead [([58;115], [50])]; EData [1;2]; EData [3]; ETrailers []] /\
    os = [RDeliver 1 (EHead [([58;115], [50])]); RDeliver 1 (EData [1;2]); RDeliver 3 (EData [9]);
          RDeliver 1 (EData [3]); RNone 1; RBoolean 1 false; RDeliver 1 (ETrailers []);
          RBoolean 1 true; RNone 1; RNone 1].
Proof. eexists. eexists. vm_compute. repeat split; reflexivity. Qed.

(* a stream reset before END_STREAM: the queued prefix is still delivered, then the error - never None *)
Example ex_recv_reset_prefix :
  let s' := fst (recv_reset 1 8 false (Open Streaming Streaming)) in
  exists st os,
    rrun [] [RNew 1; RRecvHeaders 1 false []; RRecvData 1 [1;2] false;
             RPollResponse 1 s'; RPollData 1 s'; RPollData 1 s'; RPollTrailers 1 s'] = RROk st os /\
    os = [RDeliver 1 (EHead []); RDeliver 1 (EData [1;2]); RErr 1; RErr 1].
Proof. eexists. eexists. vm_compute. repeat split; reflexivity. Qed.

(* link to the stream state machine (Properties/StreamState.v, C07/C17): a peer RST_STREAM, a connection
   error or EOF that arrives BEFORE the peer's END_STREAM makes every later read on the drained queue an
   error; after END_STREAM the message was complete and the read ends cleanly *)
Theorem recv_reset_never_clean : forall st sid r s rsid reason q,
  find_r sid st = Some r -> rs_q r = [] ->
  is_closed s = false \/ q = true ->
  let s' := fst (recv_reset rsid reason q s) in
  (is_recv_end_stream s = false ->
     rstep st (RPollData sid s') = ROkR st [RErr sid] /\ rstep st (RPollTrailers sid s') = ROkR st [RErr sid]) /\
  (is_recv_end_stream s = true ->
     rstep st (RPollData sid s') = ROkR st [RNone sid] /\ is_recv_end_stream s' = true).
Proof.
  intros st sid r s rsid reason q F Q H s'.
  destruct (recv_reset_surfaces rsid reason q s H) as (_ & _ & _ & _ & A & B). fold s' in A, B. split.
  - intros E. destruct (A E) as (_ & OPEN). exact (recv_error_never_clean st sid r s' _ F Q OPEN).
  - intros E. destruct (B E) as (_ & OPEN & ES). split; [|exact ES]. cbn [rstep]. rewrite F, Q.
    unfold on_empty. rewrite OPEN. reflexivity.
Qed.
