(* Deadlock freedom of the lock-order discipline (Model/Locks.v): the discipline is an invariant of the semantics, and in a
   configuration that obeys it the thread holding the largest held lock can always move.  Instance for thread programs
   built from h2's section shapes; satisfiability examples and an inverted-order configuration that IS stuck. *)
From H2V Require Import Base.Tac Model.Locks.

Lemma holdsb_In : forall hs l, holdsb hs l = true <-> In l hs.
Proof.
  intros hs l. unfold holdsb. rewrite existsb_exists. split.
  - intros [x [Hin Heq]]. apply Nat.eqb_eq in Heq. subst x. exact Hin.
  - intros Hin. exists l. split; [exact Hin | apply Nat.eqb_refl].
Qed.

Lemma owner_owned : forall cfg l, owned cfg l = true <-> owner cfg l.
Proof.
  intros cfg l. unfold owned, owner, all_held. rewrite holdsb_In. apply in_flat_map.
Qed.

Lemma count_drop_lock : forall l hs x,
  count_occ Nat.eq_dec (drop_lock l hs) x <= count_occ Nat.eq_dec hs x.
Proof.
  intros l hs x. unfold drop_lock. induction hs as [|h hs IH]; cbn [filter count_occ]; [lia|].
  destruct (negb (h =? l)); cbn [count_occ]; destruct (Nat.eq_dec h x); lia.
Qed.

Lemma all_held_cons : forall t cfg, all_held (t :: cfg) = held t ++ all_held cfg.
Proof. reflexivity. Qed.

Lemma set_nth_split : forall cfg i t t',
  nth_error cfg i = Some t ->
  exists pre post,
    all_held cfg = pre ++ held t ++ post /\
    all_held (set_nth i t' cfg) = pre ++ held t' ++ post.
Proof.
  induction cfg as [|a cfg IH]; intros i t t' Hnth.
  - destruct i; discriminate Hnth.
  - destruct i as [|i]; cbn in Hnth.
    + injection Hnth as ->. exists [], (all_held cfg). split; reflexivity.
    + destruct (IH i t t' Hnth) as (pre & post & Ha & Hb).
      exists (held a ++ pre), post. cbn [set_nth]. rewrite !all_held_cons, Ha, Hb, !app_assoc.
      split; reflexivity.
Qed.

Lemma in_set_nth : forall (cfg : config) i t' t0,
  In t0 (set_nth i t' cfg) -> In t0 cfg \/ t0 = t'.
Proof.
  induction cfg as [|a cfg IH]; intros i t' t0 Hin; cbn in Hin.
  - contradiction.
  - destruct i as [|i]; cbn in Hin.
    + destruct Hin as [Heq | Hin]; [right; symmetry; exact Heq | left; right; exact Hin].
    + destruct Hin as [Heq | Hin]; [left; left; exact Heq|].
      destruct (IH i t' t0 Hin) as [Hc | Hc]; [left; right; exact Hc | right; exact Hc].
Qed.

(* one action keeps a thread well ordered and never duplicates a lock: a count goes up only for a lock nobody held *)
Lemma step_thread_inv : forall cfg t t',
  step_thread cfg t = Some t' ->
  (well_ordered t = true -> well_ordered t' = true) /\
  forall x, count_occ Nat.eq_dec (held t') x <= count_occ Nat.eq_dec (held t) x \/
            (count_occ Nat.eq_dec (held t') x = S (count_occ Nat.eq_dec (held t) x) /\
             count_occ Nat.eq_dec (all_held cfg) x = 0).
Proof.
  intros cfg t t' Hst. unfold well_ordered, step_thread in *.
  destruct (todo t) as [|[l|l|] k]; [discriminate Hst| | |]; cbn [ordered_from].
  - destruct (owned cfg l) eqn:Hown; [discriminate Hst|]. injection Hst as <-. cbn [held todo count_occ].
    split; [intros Hwo; apply andb_true_iff in Hwo; apply Hwo|].
    intros x. destruct (Nat.eq_dec l x) as [<-|Hne]; [right | left; lia].
    split; [reflexivity|]. apply count_occ_not_In. intros Hin.
    apply holdsb_In in Hin. unfold owned in Hown. congruence.
  - destruct (holdsb (held t) l); [|discriminate Hst]. injection Hst as <-. cbn [held todo].
    split; [intros Hwo; apply andb_true_iff in Hwo; apply Hwo|]. left. apply count_drop_lock.
  - injection Hst as <-. cbn [held todo]. split; [trivial | left; lia].
Qed.

Theorem wf_step : forall cfg i cfg', wf cfg -> step cfg i = Some cfg' -> wf cfg'.
Proof.
  intros cfg i cfg' [Hwo Hnd] Hstep. unfold step in Hstep.
  destruct (nth_error cfg i) as [t|] eqn:Hnth; [|discriminate Hstep].
  destruct (step_thread cfg t) as [t'|] eqn:Hst; [|discriminate Hstep].
  injection Hstep as <-.
  assert (Hin : In t cfg) by (eapply nth_error_In; exact Hnth).
  split.
  - intros t0 Hin0. apply in_set_nth in Hin0. destruct Hin0 as [Hin0 | ->].
    + apply Hwo; exact Hin0.
    + apply (step_thread_inv cfg t t' Hst). apply Hwo; exact Hin.
  - destruct (set_nth_split cfg i t t' Hnth) as (pre & post & Ha & Hb).
    rewrite Hb. apply (NoDup_count_occ Nat.eq_dec). intros x.
    rewrite (NoDup_count_occ Nat.eq_dec) in Hnd. specialize (Hnd x).
    pose proof (proj2 (step_thread_inv cfg t t' Hst) x) as Hcnt.
    rewrite Ha in Hnd, Hcnt. rewrite !count_occ_app in *. lia.
Qed.

Lemma wf_reachable : forall cfg0 cfg, wf cfg0 -> reachable cfg0 cfg -> wf cfg.
Proof.
  intros cfg0 cfg Hwf Hr. induction Hr as [|c i c' Hr IH Hs]; [exact Hwf|].
  eapply wf_step; [exact IH | exact Hs].
Qed.

Lemma finished_dec : forall cfg : config, finished cfg \/ exists t, In t cfg /\ todo t <> [].
Proof.
  induction cfg as [|a cfg [Hfin | (t & Hin & Hne)]].
  - left. intros t [].
  - destruct (todo a) eqn:Ha.
    + left. intros t [<- | Hin]; [exact Ha | apply Hfin; exact Hin].
    + right. exists a. split; [left; reflexivity | congruence].
  - right. exists t. split; [right; exact Hin | exact Hne].
Qed.

Lemma list_has_max : forall l : list nat,
  l <> [] -> exists m, In m l /\ forall x, In x l -> x <= m.
Proof.
  induction l as [|a [|b l] IH]; intros Hne; [congruence| |].
  - exists a. split; [left; reflexivity|]. intros x [<- | []]. lia.
  - destruct IH as (m & Hin & Hmax); [discriminate|].
    exists (Nat.max a m). split.
    + destruct (Nat.max_spec a m) as [[_ ->] | [_ ->]]; [right; exact Hin | left; reflexivity].
    + intros x [<- | Hx]; [lia|]. specialize (Hmax x Hx). lia.
Qed.

(* a thread can move as soon as every lock held anywhere is <= the largest lock it holds
   (or nothing is held anywhere) *)
Lemma top_thread_moves : forall cfg t,
  well_ordered t = true -> todo t <> [] ->
  (forall x, In x (all_held cfg) -> exists h, In h (held t) /\ x <= h) ->
  exists t', step_thread cfg t = Some t'.
Proof.
  intros cfg t Hwo Hne Htop. unfold well_ordered in Hwo. unfold step_thread.
  destruct (todo t) as [|a k]; [congruence|].
  destruct a as [l|l|]; cbn [ordered_from] in Hwo.
  - apply andb_true_iff in Hwo. destruct Hwo as [Hlt _].
    destruct (owned cfg l) eqn:Hown; [|eexists; reflexivity].
    exfalso. apply holdsb_In in Hown. destruct (Htop l Hown) as (h & Hh & Hle).
    rewrite forallb_forall in Hlt. specialize (Hlt h Hh). apply Nat.ltb_lt in Hlt. lia.
  - apply andb_true_iff in Hwo. destruct Hwo as [Hh _]. rewrite Hh. eexists; reflexivity.
  - eexists; reflexivity.
Qed.

Theorem progress : forall cfg,
  wf cfg -> finished cfg \/ exists i cfg', step cfg i = Some cfg'.
Proof.
  intros cfg [Hwo _].
  assert (Hmove : forall t, In t cfg ->
                  (exists t', step_thread cfg t = Some t') -> exists j cfg', step cfg j = Some cfg').
  { intros t Hin [t' Hst]. destruct (In_nth_error cfg t Hin) as [i Hnth].
    exists i, (set_nth i t' cfg). unfold step. rewrite Hnth, Hst. reflexivity. }
  destruct (all_held cfg) as [|h0 hs0] eqn:Hall.
  - (* no lock held anywhere: any unfinished thread moves *)
    destruct (finished_dec cfg) as [Hfin | (t & Hin & Hne)]; [left; exact Hfin|].
    right. apply (Hmove t Hin). apply top_thread_moves; [apply Hwo; exact Hin | exact Hne |].
    rewrite Hall. intros x [].
  - (* the thread holding the globally largest held lock moves *)
    right. destruct (list_has_max (all_held cfg)) as (m & Hin & Hmax); [rewrite Hall; discriminate|].
    unfold all_held in Hin. apply in_flat_map in Hin. destruct Hin as (t & Htin & Hmt).
    apply (Hmove t Htin). apply top_thread_moves.
    + apply Hwo; exact Htin.
    + (* a well-ordered thread with nothing to do holds nothing *)
      intros Hnil. specialize (Hwo t Htin). unfold well_ordered in Hwo. rewrite Hnil in Hwo.
      destruct (held t); [contradiction | discriminate Hwo].
    + intros x Hx. exists m. split; [exact Hmt | apply Hmax; exact Hx].
Qed.

Theorem no_deadlock : forall cfg0 cfg,
  wf cfg0 -> reachable cfg0 cfg -> finished cfg \/ exists i cfg', step cfg i = Some cfg'.
Proof.
  intros cfg0 cfg Hwf Hr. apply progress. eapply wf_reachable; [exact Hwf | exact Hr].
Qed.

Corollary no_deadlock_not_stuck : forall cfg0 cfg,
  wf cfg0 -> reachable cfg0 cfg -> ~ stuck cfg.
Proof.
  intros cfg0 cfg Hwf Hr [(t & Hin & Hne) Hnone].
  destruct (no_deadlock cfg0 cfg Hwf Hr) as [Hfin | (i & cfg' & Hs)].
  - apply Hne. apply Hfin. exact Hin.
  - rewrite Hnone in Hs. discriminate Hs.
Qed.

Lemma count_held_le : forall cfg i t x,
  nth_error cfg i = Some t ->
  count_occ Nat.eq_dec (held t) x <= count_occ Nat.eq_dec (all_held cfg) x.
Proof.
  intros cfg i t x Hnth. destruct (set_nth_split cfg i t t Hnth) as (pre & post & Ha & _).
  rewrite Ha, !count_occ_app. lia.
Qed.

Lemma wf_held_nodup : forall cfg t, wf cfg -> In t cfg -> NoDup (held t).
Proof.
  intros cfg t [_ Hnd] Hin. destruct (In_nth_error cfg t Hin) as [i Hnth].
  apply (NoDup_count_occ Nat.eq_dec). intros x.
  rewrite (NoDup_count_occ Nat.eq_dec) in Hnd. specialize (Hnd x).
  pose proof (count_held_le cfg i t x Hnth). lia.
Qed.

Lemma held_once : forall cfg i j ti tj l,
  count_occ Nat.eq_dec (all_held cfg) l <= 1 ->
  nth_error cfg i = Some ti -> nth_error cfg j = Some tj ->
  0 < count_occ Nat.eq_dec (held ti) l -> 0 < count_occ Nat.eq_dec (held tj) l -> i = j.
Proof.
  induction cfg as [|a cfg IH]; intros i j ti tj l Hc Hi Hj Hli Hlj.
  - destruct i; discriminate Hi.
  - rewrite all_held_cons, count_occ_app in Hc.
    destruct i as [|i], j as [|j]; cbn in Hi, Hj.
    + reflexivity.
    + injection Hi as ->. pose proof (count_held_le cfg j tj l Hj). lia.
    + injection Hj as ->. pose proof (count_held_le cfg i ti l Hi). lia.
    + f_equal. apply (IH i j ti tj l); [lia | assumption..].
Qed.

(* no lock is held at two positions of the configuration *)
Lemma wf_exclusive : forall cfg i j ti tj l,
  wf cfg -> nth_error cfg i = Some ti -> nth_error cfg j = Some tj ->
  In l (held ti) -> In l (held tj) -> i = j.
Proof.
  intros cfg i j ti tj l [_ Hnd] Hi Hj Hli Hlj. rewrite (NoDup_count_occ Nat.eq_dec) in Hnd.
  apply (held_once cfg i j ti tj l (Hnd l) Hi Hj); apply (count_occ_In Nat.eq_dec); assumption.
Qed.

Lemma ordered_skip : forall k hs rest,
  ordered_from hs (k ++ rest) = ordered_from hs (skip_work k ++ rest).
Proof.
  induction k as [|a k IH]; intros hs rest; [reflexivity|].
  destruct a as [l|l|]; [reflexivity | reflexivity |]. cbn [skip_work app ordered_from]. apply IH.
Qed.

Lemma closes_ordered : forall l p rest,
  closes l p = true -> ordered_from [l] (p ++ rest) = ordered_from [] rest.
Proof.
  intros l p rest Hc. unfold closes in Hc. rewrite ordered_skip.
  destruct (skip_work p) as [|a k]; [discriminate Hc|].
  destruct a as [l'|l'|]; try discriminate Hc.
  destruct k as [|b k]; [|discriminate Hc].
  apply Nat.eqb_eq in Hc. subst l'.
  cbn [app ordered_from holdsb existsb drop_lock filter]. rewrite Nat.eqb_refl. reflexivity.
Qed.

Lemma section_ordered : forall s rest,
  section_ok s = true -> ordered_from [] (s ++ rest) = ordered_from [] rest.
Proof.
  intros s rest Hs. unfold section_ok in Hs. rewrite ordered_skip.
  destruct (skip_work s) as [|a k]; [reflexivity|].
  destruct a as [l|l|]; try discriminate Hs.
  destruct l as [|[|l]]; try discriminate Hs.
  - (* Acquire 0 *)
    cbn [app ordered_from forallb andb].
    destruct (closes 0 k) eqn:Hc0; [apply closes_ordered; exact Hc0|].
    cbn [orb] in Hs. rewrite ordered_skip.
    destruct (skip_work k) as [|a1 k1]; [discriminate Hs|].
    destruct a1 as [l1|l1|]; try discriminate Hs.
    destruct l1 as [|[|l1]]; try discriminate Hs.
    cbn [app ordered_from forallb andb Nat.ltb Nat.leb]. rewrite ordered_skip.
    destruct (skip_work k1) as [|a2 k2]; [discriminate Hs|].
    destruct a2 as [l2|l2|]; try discriminate Hs.
    destruct l2 as [|[|l2]]; try discriminate Hs.
    cbn [app ordered_from holdsb existsb Nat.eqb orb andb drop_lock filter negb].
    apply closes_ordered; exact Hs.
  - (* Acquire 1 *)
    cbn [app ordered_from forallb andb]. apply closes_ordered; exact Hs.
Qed.

Theorem program_ok_well_ordered : forall sections,
  program_ok sections = true -> well_ordered (h2_thread sections) = true.
Proof.
  intros sections Hok. unfold well_ordered, h2_thread. cbn [held todo].
  induction sections as [|s ss IH]; [reflexivity|].
  cbn [program_ok forallb] in Hok. apply andb_true_iff in Hok. destruct Hok as [Hs Hss].
  cbn [concat]. rewrite section_ordered; [apply IH; exact Hss | exact Hs].
Qed.

Lemma h2_config_wf : forall progs : list (list (list action)),
  (forall p, In p progs -> program_ok p = true) -> wf (map h2_thread progs).
Proof.
  intros progs Hok. split.
  - intros t Hin. apply in_map_iff in Hin. destruct Hin as (p & <- & Hp).
    apply program_ok_well_ordered. apply Hok; exact Hp.
  - replace (all_held (map h2_thread progs)) with (@nil lock); [constructor|].
    induction progs as [|p progs IH]; [reflexivity|].
    cbn [map]. rewrite all_held_cons. cbn [h2_thread held app]. apply IH.
    intros q Hq. apply Hok. right; exact Hq.
Qed.

Theorem no_deadlock_two_locks : forall (progs : list (list (list action))) cfg,
  (forall p, In p progs -> program_ok p = true) ->
  reachable (map h2_thread progs) cfg -> finished cfg \/ exists i cfg', step cfg i = Some cfg'.
Proof.
  intros progs cfg Hok Hr. eapply no_deadlock; [apply h2_config_wf; exact Hok | exact Hr].
Qed.

Lemma nodupb_NoDup : forall l, nodupb l = true <-> NoDup l.
Proof.
  induction l as [|x l IH]; cbn [nodupb].
  - split; [intros _; constructor | reflexivity].
  - rewrite andb_true_iff, negb_true_iff, IH, NoDup_cons_iff.
    split; intros [Hx Hl]; (split; [|exact Hl]).
    + intros Hin. apply holdsb_In in Hin. rewrite Hin in Hx. discriminate Hx.
    + destruct (holdsb l x) eqn:Hh; [|reflexivity]. apply holdsb_In in Hh. contradiction.
Qed.

Lemma wfb_wf : forall cfg, wfb cfg = true <-> wf cfg.
Proof.
  intros cfg. unfold wfb, wf. rewrite andb_true_iff, forallb_forall, nodupb_NoDup. reflexivity.
Qed.

Lemma run_reachable : forall sched c0 c c', reachable c0 c -> run c sched = Some c' -> reachable c0 c'.
Proof.
  induction sched as [|i sched IH]; intros c0 c c' Hr Hrun; cbn in Hrun.
  - injection Hrun as <-. exact Hr.
  - destruct (step c i) as [c1|] eqn:Hs; [|discriminate Hrun].
    apply (IH c0 c1 c'); [|exact Hrun]. eapply reach_step; [exact Hr | exact Hs].
Qed.

Lemma finishedb_finished : forall cfg, finishedb cfg = true <-> finished cfg.
Proof.
  intros cfg. unfold finishedb, finished. rewrite forallb_forall.
  split; intros H t Hin; specialize (H t Hin); destruct (todo t); congruence.
Qed.

Definition ex_progs : list (list (list action)) :=
  [ [ [Acquire 0; Work; Release 0] ];
    [ [Work; Acquire 0; Work; Acquire 1; Work; Work; Release 1; Work; Release 0];
      [Acquire 1; Release 1] ];
    [ [Acquire 1; Work; Release 1]; [Work]; [Acquire 0; Release 0] ] ].

Definition ex_cfg : config := map h2_thread ex_progs.

Example ex_progs_ok : forall p, In p ex_progs -> program_ok p = true.
Proof. apply forallb_forall. vm_compute. reflexivity. Qed.

Example ex_cfg_wf : wf ex_cfg.
Proof. apply wfb_wf. vm_compute. reflexivity. Qed.

(* thread 2 takes send_buffer, thread 1 takes inner and then has to wait for thread 2 (and
   thread 0 for thread 1): blocking is real in this model, yet somebody can always move *)
Example ex_blocked_but_not_stuck :
  exists mid, run ex_cfg [2; 1; 1; 1] = Some mid /\ step mid 1 = None /\ step mid 0 = None /\
              wf mid /\ exists mid', step mid 2 = Some mid'.
Proof.
  eexists. split; [vm_compute; reflexivity|].
  split; [vm_compute; reflexivity|]. split; [vm_compute; reflexivity|].
  split; [apply wfb_wf; vm_compute; reflexivity|]. eexists. vm_compute. reflexivity.
Qed.

Definition ex_sched : list nat := [2;1;1;1; 2;2;2; 1;1;1;1;1;1; 0; 1; 0; 1; 0; 2;2].

(* the whole system runs to completion under ex_sched (20 = 3 + 11 + 6 actions) *)
Example ex_runs_to_completion :
  exists fin, run ex_cfg ex_sched = Some fin /\ reachable ex_cfg fin /\ finished fin.
Proof.
  eexists. split; [vm_compute; reflexivity|]. split.
  - apply (run_reachable ex_sched _ _ _ (reach_refl _)). vm_compute. reflexivity.
  - apply finishedb_finished. vm_compute. reflexivity.
Qed.

(* thread A takes 0 then 1, thread B takes 1 then 0 *)
Definition inv_cfg0 : config :=
  [ {| held := []; todo := [Acquire 0; Acquire 1; Release 1; Release 0] |};
    {| held := []; todo := [Acquire 1; Acquire 0; Release 0; Release 1] |} ].

(* after each took its first lock *)
Definition inv_cfg1 : config :=
  [ {| held := [0]; todo := [Acquire 1; Release 1; Release 0] |};
    {| held := [1]; todo := [Acquire 0; Release 0; Release 1] |} ].

Example inverted_order_deadlocks :
  run inv_cfg0 [0; 1] = Some inv_cfg1 /\ reachable inv_cfg0 inv_cfg1 /\ stuck inv_cfg1 /\
  ~ wf inv_cfg0 /\ ~ wf inv_cfg1.
Proof.
  split; [vm_compute; reflexivity|].
  split; [apply (run_reachable [0; 1] _ _ _ (reach_refl _)); vm_compute; reflexivity|].
  split; [|split].
  - split.
    + eexists. split; [left; reflexivity | cbn [todo]; discriminate].
    + intros i. destruct i as [|[|i]]; [reflexivity | reflexivity |].
      unfold step, inv_cfg1. cbn [nth_error]. destruct i; reflexivity.
  - intros Hwf. apply wfb_wf in Hwf. vm_compute in Hwf. discriminate Hwf.
  - intros Hwf. apply wfb_wf in Hwf. vm_compute in Hwf. discriminate Hwf.
Qed.

(* the individual threads of the inverted configuration: A obeys the order, B does not *)
Example inverted_thread_B_not_ordered :
  map well_ordered inv_cfg0 = [true; false] /\ map well_ordered inv_cfg1 = [true; false].
Proof. split; vm_compute; reflexivity. Qed.

(* the recogniser rejects the inverted nesting, a re-entrant acquisition, and a section that
   ends while holding a lock; a re-entrant thread blocks on itself *)
Example section_ok_rejects :
  section_ok [Acquire 1; Acquire 0; Release 0; Release 1] = false /\
  section_ok [Acquire 0; Acquire 0; Release 0; Release 0] = false /\
  section_ok [Acquire 0; Work] = false /\
  section_ok [Acquire 0; Acquire 1; Release 0; Release 1] = false /\
  stuck [ {| held := [0]; todo := [Acquire 0; Release 0; Release 0] |} ].
Proof.
  repeat (split; [vm_compute; reflexivity|]). split.
  - eexists. split; [left; reflexivity | cbn [todo]; discriminate].
  - intros i. destruct i as [|i]; [reflexivity|]. unfold step. cbn [nth_error]. destruct i; reflexivity.
Qed.
