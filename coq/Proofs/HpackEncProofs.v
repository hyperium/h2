(* The HPACK encoder model (Model/HpackEnc.v) against RFC 7541 (Ref/Rfc7541Block.v), property C10.  What the encoder
   writes is a representation in the sense of the RFC's grammar ([field_repr], [rfc_block_decodes]); that the
   executable reference decoder reads it back is then [rfc_ref_decode_block_spec] of Proofs/HpackDecProofs.v.  Of the
   Huffman coder only [huff_roundtrip], [huff_encode_spec] and the bound [code_bits_length] on code lengths are used. *)
From Coq Require Import String.
From H2V Require Import Base.Tac Base.Bytes Gen.StaticTable Model.HttpTokens Model.Huffman.
From H2V Require Import Ref.Rfc7541Huff Ref.Rfc7541Int Ref.Rfc7541Static Ref.Rfc7541Block.
From H2V Require Import Proofs.HuffmanProofs Proofs.HpackIntProofs Proofs.HpackDecProofs.
From H2V Require Import Model.HpackEnc.
Local Open Scope N_scope.

Lemma lor_hi hi p x : x < 2 ^ p -> N.lor (hi * 2 ^ p) x = hi * 2 ^ p + x.
Proof.
  intros Hx. apply lor_add_disjoint with (k := p); [|exact Hx].
  apply N.mod_mul, N.pow_nonzero. lia.
Qed.

Lemma lor_128 x : x < 256 -> N.lor 128 x = 128 + x mod 128.
Proof.
  intros Hx. pose proof (lor_hi 1 7) as H. change (1 * 2 ^ 7) with 128 in H. change (2 ^ 7) with 128 in H.
  destruct (N.lt_ge_cases x 128) as [Hl|Hg].
  - rewrite H by exact Hl. lia.
  - replace x with (128 + (x - 128)) at 1 by lia. rewrite <- H by lia.
    rewrite N.lor_assoc, N.lor_diag, H by lia. lia.
Qed.

(* encode_int of encoder.rs writes the canonical form of RFC 7541 5.1 *)
Lemma enc_int_cont_ref : forall fuel v, enc_int_cont fuel v = encode_cont fuel v.
Proof.
  induction fuel as [|fuel IH]; intros v; cbn [enc_int_cont encode_cont]; [reflexivity|].
  rewrite IH, N.leb_antisym, lor_128 by lia.
  replace ((v mod 256) mod 128) with (v mod 128) by lia.
  destruct (v <? 128); reflexivity.
Qed.

Lemma enc_int_ref v p hi : enc_int v p (hi * 2 ^ p) = encode_int p hi v.
Proof.
  unfold enc_int, encode_int, encode_int_one_byte. cbv zeta. pose proof (pow2_pos p).
  rewrite enc_int_cont_ref. destruct (v <? 2 ^ p - 1) eqn:E; rewrite lor_hi by lia; reflexivity.
Qed.

(* [L] is the reading peer's limit on the continuation octets of one integer ([int_repr_L]; h2's own decoder has
   [h2_int_limit] = 4).  The integers the encoder writes (indices, string lengths, table sizes) are far below
   2^28 = 128^4, so every limit from 4 on will do. *)
Lemma enc_int_repr4 (L : nat) p hi v :
  (4 <= L)%nat -> v < 2 ^ 28 -> int_repr_L L p hi v (enc_int v p (hi * 2 ^ p)).
Proof.
  intros HL Hv. rewrite enc_int_ref. split; [apply encode_int_repr|].
  unfold encode_int. destruct (v <? 2 ^ p - 1); cbn [length]; [lia|].
  apply le_n_S, (Nat.le_trans _ 4); [apply encode_cont_length; [|lia]|exact HL].
  change (128 ^ N.of_nat 4) with (2 ^ 28). lia.
Qed.

Lemma lenb_app a b : lenb (a ++ b) = lenb a + lenb b.
Proof. unfold lenb. rewrite app_length. lia. Qed.

Lemma bits_of_bytes_length l : length (bits_of_bytes l) = (8 * length l)%nat.
Proof.
  induction l as [|b l IH]; [reflexivity|].
  cbn [bits_of_bytes length]. rewrite app_length, bitsN_length, IH. lia.
Qed.

Lemma codes_length_le : forall s,
  bytes_ok s = true -> (length (concat (map code_bits s)) <= 30 * length s)%nat.
Proof.
  induction s as [|b s IH]; intros H; [cbn; lia|]. apply bytes_ok_cons in H as [Hb H].
  cbn [map concat length]. rewrite app_length.
  pose proof (code_bits_length b ltac:(lia)). specialize (IH H). lia.
Qed.

(* a code has at most 30 bits, and fewer than 8 bits pad the last octet *)
Lemma huff_encode_len s : bytes_ok s = true -> lenb (huff_encode s) <= 4 * lenb s.
Proof.
  intros H. destruct (huff_encode_spec s H) as (pad & E & Hp & _).
  apply (f_equal (@length bool)) in E. rewrite bits_of_bytes_length, !app_length in E.
  pose proof (codes_length_le s H). unfold lenb. lia.
Qed.

(* a string the theorems speak about: octets, shorter than 16 MiB *)
Definition str_ok (s : list N) : bool := bytes_ok s && (lenb s <? 2 ^ 24).

Lemma str_ok_spec s : str_ok s = true -> bytes_ok s = true /\ lenb s < 2 ^ 24.
Proof. unfold str_ok. rewrite andb_true_iff, N.ltb_lt. auto. Qed.

Lemma enc_str_shape s :
  enc_str s = match s with
              | [] => [0]
              | _ :: _ => enc_int (lenb (huff_encode s)) 7 (1 * 2 ^ 7) ++ huff_encode s
              end.
Proof.
  destruct s as [|x s]; [reflexivity|]. unfold enc_str.
  destruct (encode_int_one_byte (lenb (huff_encode (x :: s))) 7) eqn:E; [|reflexivity].
  unfold enc_int. rewrite E. reflexivity.
Qed.

Lemma enc_str_lit (L : nat) s : (4 <= L)%nat -> str_ok s = true -> string_lit huff_decode_opt L (enc_str s) s.
Proof.
  intros HL Hs. apply str_ok_spec in Hs as [Hb Hl]. rewrite enc_str_shape. destruct s as [|x s].
  - exact (str_raw huff_decode_opt L (enc_int 0 7 (0 * 2 ^ 7)) [] (enc_int_repr4 L 7 0 0 HL eq_refl)).
  - apply str_huff.
    + apply enc_int_repr4; [exact HL|]. pose proof (huff_encode_len _ Hb).
      change (2 ^ 24) with 16777216 in Hl. change (2 ^ 28) with 268435456. unfold lenN, lenb in *. lia.
    + unfold huff_decode_opt. rewrite huff_roundtrip by exact Hb. reflexivity.
Qed.

Lemma lookup_static dyn i : 1 <= i <= rfc_static_len -> lookup dyn i = nthN rfc_static (i - 1).
Proof.
  intros H. unfold lookup.
  replace (i =? 0) with false by lia. replace (i <=? rfc_static_len) with true by lia. reflexivity.
Qed.

Lemma lookup_dyn dyn j : lookup dyn (j + DYN_OFFSET) = nthN dyn j.
Proof.
  unfold lookup, DYN_OFFSET. destruct gen_static_is_rfc as (_ & _ & _ & _ & ->).
  replace (j + (rfc_static_len + 1) =? 0) with false by lia.
  replace (j + (rfc_static_len + 1) <=? rfc_static_len) with false by lia.
  replace (j + (rfc_static_len + 1) - rfc_static_len - 1) with j by lia. reflexivity.
Qed.

Lemma nthN_some_lt {A} : forall (l : list A) n x, nthN l n = Some x -> n < lenN l.
Proof.
  unfold lenN. induction l as [|y l IH]; intros n x H; cbn [nthN] in H; [discriminate|].
  cbn [List.length]. destruct (n =? 0) eqn:E; [lia|]. apply IH in H. lia.
Qed.

Lemma lookup_le dyn i f : lookup dyn i = Some f -> 1 <= i <= rfc_static_len + lenN dyn.
Proof.
  unfold lookup. destruct (i =? 0) eqn:E0; [discriminate|].
  destruct (i <=? rfc_static_len) eqn:E; [lia|]. intros H. apply nthN_some_lt in H. lia.
Qed.

(* what index_static returns is what the RFC's table holds there: [static_index_inverse_entry] says it of
   decoder::get_static, which is the RFC's table on 1..61 *)
Lemma index_static_in_sound dyn : forall tbl n v i flag,
  incl tbl static_index -> index_static_in tbl n v = Some (i, flag) ->
  exists v0, lookup dyn i = Some (n, v0) /\ (flag = true -> v0 = v).
Proof.
  induction tbl as [|[[[n' ex] idx] fl] tbl IH]; intros n v i flag Hin H; cbn [index_static_in] in H; [discriminate|].
  apply incl_cons_inv in Hin as [He Hin].
  destruct (list_N_eqb n n' && match ex with Some v' => list_N_eqb v v' | None => true end) eqn:E; [|eauto].
  injection H as -> ->. apply andb_true_iff in E as [En Ev]. apply list_N_eqb_eq in En as <-.
  destruct (static_index_inverse_entry _ _ _ _ He) as (v0 & Hg & Hex).
  assert (Hi : 1 <= i) by (destruct (N.eq_dec i 0) as [->|]; [discriminate Hg|lia]).
  rewrite get_static_rfc in Hg by exact Hi. pose proof (nthN_some_lt _ _ _ Hg) as Hle.
  rewrite lookup_static by (change (lenN rfc_static) with rfc_static_len in Hle; lia).
  exists v0. split; [exact Hg|]. intros ->. destruct ex as [v'|]; [|discriminate].
  destruct Hex as [_ ->]. apply list_N_eqb_eq in Ev. auto.
Qed.

Lemma index_static_sound dyn h i flag :
  index_static h = Some (i, flag) ->
  exists v0, lookup dyn i = Some (h_name h, v0) /\ (flag = true -> v0 = h_value h).
Proof. apply index_static_in_sound, incl_refl. Qed.

Lemma pop_back_spec {A} : forall l : list A,
  (pop_back l = None /\ l = []) \/ (exists l' x, pop_back l = Some (l', x) /\ l = l' ++ [x]).
Proof.
  induction l as [|y l IH]; [left; auto|]. right. cbn [pop_back].
  destruct IH as [[-> ->]|(l' & x & -> & ->)].
  - exists [], y. auto.
  - exists (y :: l'), x. auto.
Qed.

Lemma table_len_le es : 32 * lenN es <= table_size es.
Proof.
  unfold lenN. induction es as [|e es IH]; cbn [table_size List.length]; [lia|].
  pose proof (entry_size_pos e). lia.
Qed.

(* Table::converge is the eviction of RFC 7541 4.3 / 4.4; [extra] is the size of the entry about to
   be inserted (update_size), 0 for a resize *)
Lemma converge_spec : forall fuel es size max extra,
  size = extra + table_size es -> extra <= max -> (List.length es < fuel)%nat ->
  converge fuel es size max =
    EOk (keep_prefix (max - extra) es, extra + table_size (keep_prefix (max - extra) es)).
Proof.
  induction fuel as [|fuel IH]; intros es size max extra Hs He Hf; [lia|].
  cbn [converge]. destruct (size <=? max) eqn:E.
  - rewrite kp_all by lia. subst size. reflexivity.
  - destruct (pop_back_spec es) as [[_ ->]|(es' & last & Hp & ->)].
    + cbn [table_size] in Hs. lia.
    + rewrite Hp. rewrite table_size_app in Hs. cbn [table_size] in Hs.
      change (fsize last) with (entry_size last).
      replace (size <? entry_size last) with false by lia.
      rewrite (IH es' (size - entry_size last) max extra); [| lia | lia |].
      * rewrite kp_drop_last; [reflexivity|]. rewrite table_size_app. cbn [table_size]. lia.
      * rewrite app_length in Hf. cbn [List.length] in Hf. lia.
Qed.

Definition tinv (t : enc_table) : Prop :=
  et_size t = table_size (et_entries t) /\ et_size t <= et_max t.

(* the table after inserting f, in the RFC's words *)
Definition ins (t : enc_table) (f : hfield) : enc_table :=
  mkTable (add_entry (et_max t) f (et_entries t))
          (table_size (add_entry (et_max t) f (et_entries t))) (et_max t).

Lemma tinv_ins t f : tinv (ins t f).
Proof.
  split; [reflexivity|]. cbn [ins et_size et_max]. unfold add_entry.
  destruct (entry_size f <=? et_max t) eqn:E; cbn [table_size]; [|lia].
  pose proof (kp_fits (et_entries t) (et_max t - entry_size f)). lia.
Qed.

Lemma enc_table_insert_spec t f : tinv t -> fsize f <= et_max t -> table_insert t f = EOk (ins t f).
Proof.
  intros [Hs Hm] Hf. unfold table_insert, converge_fuel.
  rewrite (converge_spec _ _ _ _ (fsize f)); [| lia | exact Hf | apply Nat.lt_succ_diag_r].
  unfold ins, add_entry. change (entry_size f) with (fsize f).
  replace (fsize f <=? et_max t) with true by lia. reflexivity.
Qed.

Lemma ins_newest t f : fsize f <= et_max t -> lookup (et_entries (ins t f)) (0 + DYN_OFFSET) = Some f.
Proof.
  intros Hf. rewrite lookup_dyn. cbn [ins et_entries]. unfold add_entry.
  change (entry_size f) with (fsize f). replace (fsize f <=? et_max t) with true by lia. reflexivity.
Qed.

(* the table after a size update to v, in the RFC's words *)
Definition rsz (t : enc_table) (v : N) : enc_table :=
  mkTable (evict_to v (et_entries t)) (table_size (evict_to v (et_entries t))) v.

Lemma tinv_rsz t v : tinv (rsz t v).
Proof. split; [reflexivity|apply kp_fits]. Qed.

Lemma enc_table_resize_spec t v : tinv t -> table_resize t v = EOk (rsz t v).
Proof.
  intros [Hs Hm]. unfold table_resize, rsz, evict_to. destruct (v =? 0) eqn:E.
  - replace v with 0 by lia. destruct (et_entries t) as [|e es]; [reflexivity|].
    cbn [keep_prefix]. pose proof (entry_size_pos e).
    replace (entry_size e <=? 0) with false by lia. reflexivity.
  - unfold converge_fuel. rewrite (converge_spec _ _ _ _ 0); [| lia | lia | apply Nat.lt_succ_diag_r].
    rewrite N.sub_0_r, N.add_0_l. reflexivity.
Qed.

(* max_size within 4096 (DEFAULT_MAX_ALLOWED_SIZE, the cap of Encoder::new and update_max_size) leaves room for
   128 entries of at least 32 octets, so indices stay below 190 *)
Lemma index_small t i f :
  tinv t -> et_max t <= 4096 -> lookup (et_entries t) i = Some f -> 1 <= i < 2 ^ 28.
Proof.
  intros [Hs Hm] H4 Hl. apply lookup_le in Hl. pose proof (table_len_le (et_entries t)).
  unfold rfc_static_len in Hl. change (2 ^ 28) with 268435456. lia.
Qed.

Lemma find_first_pos_spec p : forall es i j,
  find_first_pos p es i = Some j -> i <= j /\ exists e, nthN es (j - i) = Some e /\ p e = true.
Proof.
  induction es as [|e es IH]; intros i j H; cbn [find_first_pos] in H; [discriminate|].
  destruct (p e) eqn:E.
  - injection H as <-. split; [lia|]. exists e. cbn [nthN]. rewrite N.sub_diag. auto.
  - apply IH in H as [Hle (e' & Hn & Hp)]. split; [lia|]. exists e'. cbn [nthN].
    replace (j - i =? 0) with false by lia. replace (j - i - 1) with (j - (i + 1)) by lia. auto.
Qed.

Lemma find_last_pos_spec p : forall es i j,
  find_last_pos p es i = Some j -> i <= j /\ exists e, nthN es (j - i) = Some e /\ p e = true.
Proof.
  induction es as [|e es IH]; intros i j H; cbn [find_last_pos] in H; [discriminate|].
  destruct (find_last_pos p es (i + 1)) as [j'|] eqn:E.
  - injection H as <-. apply IH in E as [Hle (e' & Hn & Hp)]. split; [lia|]. exists e'. cbn [nthN].
    replace (j' - i =? 0) with false by lia. replace (j' - i - 1) with (j' - (i + 1)) by lia. auto.
  - destruct (p e) eqn:Ep; [|discriminate]. injection H as <-. split; [lia|].
    exists e. cbn [nthN]. rewrite N.sub_diag. auto.
Qed.

Lemma name_is_spec n e : name_is n e = true -> fst e = n.
Proof. unfold name_is. apply list_N_eqb_eq. Qed.

Lemma field_is_spec n v e : field_is n v e = true -> e = (n, v).
Proof.
  unfold field_is. rewrite andb_true_iff, !list_N_eqb_eq. destruct e. cbn [fst snd]. intros [-> ->]. reflexivity.
Qed.

(* index i names an entry with name n in the decoder's address space *)
Definition names (dyn : list field) (i : N) (n : list N) : Prop := exists v0, lookup dyn i = Some (n, v0).

(* h went into the table: Table::index inserts only what is not sensitive and fits *)
Definition inserted (t : enc_table) (h : hdr) (t' : enc_table) : Prop :=
  hdr_is_sensitive h = false /\ fsize (hdr_field h) <= et_max t /\ t' = ins t (hdr_field h).

(* what Table::index returns for h, read in the decoder's address space *)
Definition index_ok (t : enc_table) (h : hdr) (t' : enc_table) (i : index) : Prop :=
  match i with
  | Indexed n => t' = t /\ lookup (et_entries t) n = Some (hdr_field h)
  | Name n => t' = t /\ names (et_entries t) n (h_name h)
  | Inserted slot => slot = 0 /\ inserted t h t'
  | InsertedValue n slot => slot = 0 /\ inserted t h t' /\ names (et_entries t) n (h_name h)
  | NotIndexed => t' = t
  end.

Lemma index_new_ok t h : index_ok t h t (index_new (index_static h)).
Proof.
  destruct (index_static h) as [[i fl]|] eqn:E; [|reflexivity].
  destruct (index_static_sound (et_entries t) h i fl E) as (v0 & Hl & Hv).
  destruct fl; cbn [index_new index_ok]; (split; [reflexivity|]).
  - rewrite Hl, (Hv eq_refl). reflexivity.
  - exists v0. exact Hl.
Qed.

Lemma index_dynamic_ok t h statik :
  tinv t -> fsize (hdr_field h) <= et_max t -> index_ok t h t (index_new statik) ->
  exists t' i, index_dynamic t h statik = EOk (t', i) /\ index_ok t h t' i.
Proof.
  intros Ht Hfit Hnew. unfold index_dynamic.
  assert (Hname : forall n, statik_name statik = Some n -> names (et_entries t) n (h_name h)).
  { destruct statik as [[i [|]]|]; intros n [= <-]; destruct Hnew as [_ Hl]; [exists (h_value h)|]; exact Hl. }
  assert (Hins : hdr_is_sensitive h = false -> inserted t h (ins t (hdr_field h))).
  { intros Es. split; [exact Es|]. split; [exact Hfit|reflexivity]. }
  destruct (find_first_pos (name_is (h_name h)) (et_entries t) 0) as [newest|] eqn:Ef.
  - apply find_first_pos_spec in Ef as [_ ([en ev] & Hn & Hp)].
    rewrite N.sub_0_r in Hn. apply name_is_spec in Hp. cbn [fst] in Hp. subst en.
    assert (Hnewest : names (et_entries t) (newest + DYN_OFFSET) (h_name h)).
    { exists ev. rewrite lookup_dyn. exact Hn. }
    destruct (find_last_pos (field_is (h_name h) (h_value h)) (et_entries t) 0) as [r|] eqn:El.
    + apply find_last_pos_spec in El as [_ (e & Hr & Hq)].
      rewrite N.sub_0_r in Hr. apply field_is_spec in Hq. subst e.
      eexists _, _. split; [reflexivity|]. split; [reflexivity|]. rewrite lookup_dyn. exact Hr.
    + destruct (hdr_is_sensitive h) eqn:Es.
      * eexists _, _. split; [reflexivity|]. split; [reflexivity|exact Hnewest].
      * rewrite enc_table_insert_spec by assumption. eexists _, _. split; [reflexivity|].
        destruct (statik_name statik) as [n|]; cbn [index_ok]; auto.
  - destruct (hdr_is_sensitive h) eqn:Es; [eauto|].
    rewrite enc_table_insert_spec by assumption. eexists _, _. split; [reflexivity|].
    destruct (statik_name statik) as [n|]; cbn [index_ok]; auto.
Qed.

Lemma table_index_ok t h : tinv t -> exists t' i, table_index t h = EOk (t', i) /\ index_ok t h t' i.
Proof.
  intros Ht. unfold table_index. pose proof (index_new_ok t h) as Hnew.
  destruct (hdr_skip_value_index h); [eauto|].
  destruct (index_static h) as [[n [|]]|]; [eauto| |];
    (destruct (et_max t * 3 <? hdr_len h * 4) eqn:E; [eauto|];
     apply index_dynamic_ok; [exact Ht|unfold hdr_len in E; lia|exact Hnew]).
Qed.

Lemma name_indexed (L : nat) t p hi i n :
  (4 <= L)%nat -> tinv t -> et_max t <= 4096 -> names (et_entries t) i n ->
  lit_name huff_decode_opt L (et_entries t) p hi (enc_int i p (hi * 2 ^ p)) n.
Proof.
  intros HL Ht H4 (v0 & Hl). pose proof (index_small t i _ Ht H4 Hl) as Hi.
  apply ln_indexed with (i := i) (v0 := v0); [apply enc_int_repr4; [exact HL|lia]|lia|exact Hl].
Qed.

Lemma name_literal (L : nat) dyn p hi n :
  (4 <= L)%nat -> str_ok n = true ->
  lit_name huff_decode_opt L dyn p hi (enc_int 0 p (hi * 2 ^ p) ++ enc_str n) n.
Proof.
  intros HL Hn. apply ln_new; [apply enc_int_repr4; [exact HL|reflexivity]|apply enc_str_lit; assumption].
Qed.

(* 6.2.2 / 6.2.3 *)
Lemma literal_repr (L : nat) max dyn (sens : bool) nenc n v :
  (4 <= L)%nat -> str_ok v = true -> lit_name huff_decode_opt L dyn 4 (if sens then 1 else 0) nenc n ->
  field_repr huff_decode_opt L max dyn (nenc ++ enc_str v) (n, v) dyn.
Proof.
  intros HL Hv Hn. destruct sens; [apply fr_never|apply fr_without]; try exact Hn; apply enc_str_lit; assumption.
Qed.

Lemma not_indexed_repr (L : nat) t sens i n v :
  (4 <= L)%nat -> tinv t -> et_max t <= 4096 -> names (et_entries t) i n -> str_ok v = true ->
  field_repr huff_decode_opt L (et_max t) (et_entries t) (encode_not_indexed i v sens) (n, v) (et_entries t).
Proof.
  intros HL Ht H4 Hi Hv. apply (literal_repr L _ _ sens); [exact HL|exact Hv|].
  destruct sens; [exact (name_indexed L t 4 1 i n HL Ht H4 Hi)|exact (name_indexed L t 4 0 i n HL Ht H4 Hi)].
Qed.

Lemma not_indexed2_repr (L : nat) max dyn sens n v :
  (4 <= L)%nat -> str_ok n = true -> str_ok v = true ->
  field_repr huff_decode_opt L max dyn (encode_not_indexed2 n v sens) (n, v) dyn.
Proof.
  intros HL Hn Hv. unfold encode_not_indexed2. rewrite app_assoc. apply (literal_repr L _ _ sens); [exact HL|exact Hv|].
  destruct sens; [exact (name_literal L dyn 4 1 n HL Hn)|exact (name_literal L dyn 4 0 n HL Hn)].
Qed.

(* 6.3 *)
Lemma size_update_ok (L : nat) lim v :
  (4 <= L)%nat -> v <= lim -> v <= 4096 -> size_update_repr L lim (enc_size_update v) v.
Proof.
  intros HL Hv H4. split; [|exact Hv].
  apply (enc_int_repr4 L 5 1 v HL). change (2 ^ 28) with 268435456. lia.
Qed.

(* what `last_index` has to satisfy for encode_header_without_name *)
Definition last_ok (dyn : list field) (idx : index) (n : list N) : Prop :=
  match resolve_idx idx with Some i => names dyn i n | None => True end.

(* only the last part needs the strings within the limits *)
Lemma header_spec t h : tinv t ->
  exists t' i, table_index t h = EOk (t', i) /\ exists octets, encode_header i h = EOk octets /\
    (tinv t' /\ et_max t' = et_max t /\ (hdr_is_sensitive h = true -> t' = t)) /\
    forall L : nat, (4 <= L)%nat -> et_max t <= 4096 -> str_ok (h_name h) = true -> str_ok (h_value h) = true ->
      field_repr huff_decode_opt L (et_max t) (et_entries t) octets (hdr_field h) (et_entries t') /\
      last_ok (et_entries t') i (h_name h).
Proof.
  intros Ht. destruct (table_index_ok t h Ht) as (t' & i & Hti & Hi). exists t', i. split; [exact Hti|].
  destruct i as [n|n|slot|n slot|]; cbn [index_ok encode_header] in *.
  - destruct Hi as [-> Hl]. eexists. split; [reflexivity|]. split; [auto|].
    intros L HL H4 _ _. pose proof (index_small t n _ Ht H4 Hl). split.
    + apply fr_indexed with (i := n); [apply (enc_int_repr4 L 7 1 n HL); lia|exact Hl].
    + exists (h_value h). exact Hl.
  - destruct Hi as [-> Hn]. eexists. split; [reflexivity|]. split; [auto|].
    intros L HL H4 _ Hv. split; [|exact Hn]. apply not_indexed_repr; assumption.
  - destruct Hi as (-> & Hs & Hf & ->). rewrite Hs. eexists. split; [reflexivity|].
    split; [split; [apply tinv_ins|split; [reflexivity|discriminate]]|].
    intros L HL H4 Hn Hv. split.
    + apply (fr_incremental huff_decode_opt L _ _ (enc_int 0 6 (1 * 2 ^ 6) ++ enc_str (h_name h)) _
                            (enc_str (h_value h)));
        [apply name_literal|apply enc_str_lit]; assumption.
    + exists (h_value h). apply ins_newest. exact Hf.
  - destruct Hi as (-> & (Hs & Hf & ->) & Hi). rewrite Hs. eexists. split; [reflexivity|].
    split; [split; [apply tinv_ins|split; [reflexivity|discriminate]]|].
    intros L HL H4 Hn Hv. split.
    + apply fr_incremental; [exact (name_indexed L t 6 1 n _ HL Ht H4 Hi)|apply enc_str_lit; assumption].
    + exists (h_value h). apply ins_newest. exact Hf.
  - subst t'. eexists. split; [reflexivity|]. split; [auto|].
    intros L HL H4 Hn Hv. split; [|exact I]. apply not_indexed2_repr; assumption.
Qed.

Lemma nameless_repr (L : nat) t idx lh v sens :
  (4 <= L)%nat -> tinv t -> et_max t <= 4096 ->
  last_ok (et_entries t) idx (h_name lh) -> str_ok (h_name lh) = true -> str_ok v = true ->
  field_repr huff_decode_opt L (et_max t) (et_entries t) (encode_header_without_name idx lh v sens)
             (h_name lh, v) (et_entries t).
Proof.
  intros HL Ht H4 Hlast Hn Hv. unfold encode_header_without_name, last_ok in *.
  destruct (resolve_idx idx) as [i|]; [apply not_indexed_repr|apply not_indexed2_repr]; assumption.
Qed.

(* well-formedness of what is submitted *)
Definition field_ok (f : field_in) : bool :=
  match fi_name f with Some n => str_ok n | None => true end && str_ok (fi_value f).

Definition block_named (fl : list field_in) : bool :=
  match fl with
  | [] => true
  | f :: _ => match fi_name f with Some _ => true | None => false end
  end.

Definition block_ok (fl : list field_in) : bool := block_named fl && forallb field_ok fl.

Definition last_inv (dyn : list field) (last : option (index * hdr)) (prev : list N) : Prop :=
  match last with
  | None => True
  | Some (idx, lh) => h_name lh = prev /\ str_ok prev = true /\ last_ok dyn idx prev
  end.

(* The `for` loop of `encode`.  That a failure comes with [last = None] is what carries the induction:
   after the first named field `last_index` is never None again. *)
Lemma encode_loop_spec : forall fl t last, tinv t ->
  match encode_loop t last fl with
  | EOk (t', out) =>
    tinv t' /\ et_max t' = et_max t /\
    forall (L : nat) prev, (4 <= L)%nat -> et_max t <= 4096 -> forallb field_ok fl = true ->
      last_inv (et_entries t) last prev ->
      fields_decode huff_decode_opt L (et_max t) (et_entries t) out (submitted_from prev fl) (et_entries t')
  | EFail e => e = NoPreviousName /\ last = None /\ block_named fl = false
  end.
Proof.
  induction fl as [|f fl IH]; intros t last Ht; cbn [encode_loop].
  - split; [exact Ht|]. split; [reflexivity|]. intros. apply fd_nil.
  - destruct (fi_name f) as [n|] eqn:En.
    + set (h := mkHdr n (fi_value f) (fi_sens f)).
      destruct (header_spec t h Ht) as (t1 & idx & -> & octets & -> & (Ht1 & Hm1 & _) & Hrepr).
      specialize (IH t1 (Some (idx, h)) Ht1).
      destruct (encode_loop t1 (Some (idx, h)) fl) as [[t2 rest]|e]; [|destruct IH as (_ & [=] & _)].
      destruct IH as (Ht2 & Hm2 & Hdec). split; [exact Ht2|]. split; [congruence|].
      intros L prev HL H4 Hok _. cbn [forallb submitted_from] in *. rewrite En.
      apply andb_true_iff in Hok as [Hf Hok]. unfold field_ok in Hf. rewrite En in Hf.
      apply andb_true_iff in Hf as [Hfn Hfv].
      destruct (Hrepr L HL H4 Hfn Hfv) as [Hr Hl].
      apply fd_cons with (dyn1 := et_entries t1); [exact Hr|].
      rewrite <- Hm1. apply Hdec; [exact HL|lia|exact Hok|]. cbn [last_inv]. auto.
    + destruct last as [[idx lh]|]; [|cbn [block_named]; rewrite En; auto].
      specialize (IH t (Some (idx, lh)) Ht).
      destruct (encode_loop t (Some (idx, lh)) fl) as [[t2 rest]|e]; [|destruct IH as (_ & [=] & _)].
      destruct IH as (Ht2 & Hm2 & Hdec). split; [exact Ht2|]. split; [exact Hm2|].
      intros L prev HL H4 Hok (<- & Hprev & Hl). cbn [forallb submitted_from] in *. rewrite En.
      apply andb_true_iff in Hok as [Hf Hok]. unfold field_ok in Hf. apply andb_true_iff in Hf as [_ Hfv].
      apply fd_cons with (dyn1 := et_entries t); [apply nameless_repr; assumption|].
      apply Hdec; [exact HL|exact H4|exact Hok|]. cbn [last_inv]. auto.
Qed.

Definition pend_le (st : enc_state) : Prop :=
  match e_size_update st with
  | None => True
  | Some (One v) => v <= 4096
  | Some (Two mn v) => mn <= 4096 /\ v <= 4096
  end.

Definition einv (st : enc_state) : Prop :=
  tinv (e_table st) /\ et_max (e_table st) <= 4096 /\ e_max_allowed st = 4096 /\ pend_le st.

(* update_max_size caps its argument *)
Definition capv (st : enc_state) (u : N) : N := N.min u (e_max_allowed st).

Lemma upd_frame st u :
  e_table (enc_update_max_size st u) = e_table st /\
  e_max_allowed (enc_update_max_size st u) = e_max_allowed st.
Proof.
  unfold enc_update_max_size. destruct (e_size_update st) as [[old|mn mx]|].
  - destruct (old <? N.min u (e_max_allowed st)); [destruct (et_max (e_table st) <? old)|]; auto.
  - destruct (N.min u (e_max_allowed st) <? mn); auto.
  - destruct (negb (N.min u (e_max_allowed st) =? et_max (e_table st))); auto.
Qed.

(* `size_update` against the table's max_size [tmax]: [lo] / [fin] are the minimum / the last of [tmax] and the
   capped values given since the last block *)
Definition pend_spec (tmax lo fin : N) (su : option size_update) : Prop :=
  lo <= fin /\
  match su with
  | None => lo = tmax /\ fin = tmax
  | Some (One x) => x = fin /\ (lo = x \/ tmax <= lo)
  | Some (Two mn x) => x = fin /\ mn = lo /\ mn <= tmax /\ mn <= x
  end.

Lemma pend_spec_none st : e_size_update st = None ->
  pend_spec (et_max (e_table st)) (et_max (e_table st)) (et_max (e_table st)) (e_size_update st).
Proof. intros ->. split; [apply N.le_refl|auto]. Qed.

Lemma upd_spec st lo fin u :
  pend_spec (et_max (e_table st)) lo fin (e_size_update st) ->
  pend_spec (et_max (e_table st)) (N.min lo (capv st u)) (capv st u)
            (e_size_update (enc_update_max_size st u)).
Proof.
  unfold pend_spec, enc_update_max_size, capv. intros [Hlf H].
  destruct (e_size_update st) as [[old|mn mx]|] eqn:E0.
  - destruct H as [-> H].
    destruct (fin <? N.min u (e_max_allowed st)) eqn:E1;
      [destruct (et_max (e_table st) <? fin) eqn:E2|]; cbn [e_size_update]; lia.
  - destruct H as (-> & -> & H1 & H2).
    destruct (N.min u (e_max_allowed st) <? lo) eqn:E1; cbn [e_size_update]; lia.
  - destruct H as [-> ->].
    destruct (N.min u (e_max_allowed st) =? et_max (e_table st)) eqn:E1; cbn [negb e_size_update];
      [rewrite E0|]; lia.
Qed.

Lemma last_cons {A} (x : A) : forall l d, last (x :: l) d = last l x.
Proof.
  intros l. revert x. induction l as [|y l IH]; intros x d; [reflexivity|].
  change (last (x :: y :: l) d) with (last (y :: l) d). rewrite !IH. reflexivity.
Qed.

Lemma last_app {A} (a b : list A) d : last (a ++ b) d = last b (last a d).
Proof.
  revert d. induction a as [|x a IH]; intros d; [reflexivity|].
  change ((x :: a) ++ b) with (x :: (a ++ b)). rewrite !last_cons. apply IH.
Qed.

Lemma fold_min_l : forall l a b, fold_left N.min l (N.min a b) = N.min a (fold_left N.min l b).
Proof.
  induction l as [|x l IH]; intros a b; cbn [fold_left]; [reflexivity|]. rewrite <- N.min_assoc. apply IH.
Qed.

Lemma fold_spec : forall ups st lo fin,
  pend_spec (et_max (e_table st)) lo fin (e_size_update st) ->
  pend_spec (et_max (e_table st)) (fold_left N.min (map (capv st) ups) lo)
            (last (map (capv st) ups) fin)
            (e_size_update (fold_left enc_update_max_size ups st)) /\
  e_table (fold_left enc_update_max_size ups st) = e_table st /\
  e_max_allowed (fold_left enc_update_max_size ups st) = e_max_allowed st.
Proof.
  induction ups as [|u ups IH]; intros st lo fin H; cbn [fold_left map]; [auto|].
  pose proof (upd_spec st lo fin u H) as H1. destruct (upd_frame st u) as [Ht Ha].
  rewrite <- Ht in H1. destruct (IH _ _ _ H1) as (H2 & H3 & H4).
  replace (capv (enc_update_max_size st u)) with (capv st) in H2 by (unfold capv; rewrite Ha; reflexivity).
  rewrite Ht in H2. rewrite last_cons, H3, H4. auto.
Qed.

Lemma last_capv st : forall ups a lim, a <= lim -> a <= e_max_allowed st ->
  last (map (capv st) ups) a <= last ups lim /\ last (map (capv st) ups) a <= e_max_allowed st.
Proof.
  induction ups as [|u ups IH]; intros a lim H1 H2; [auto|].
  cbn [map]. rewrite !last_cons. apply IH; unfold capv; lia.
Qed.

Lemma last_limit_spec rs ups :
  last_limit rs ups = mk_rstate (r_dyn rs) (r_max rs) (last ups (r_limit rs)).
Proof.
  unfold last_limit. destruct ups as [|x xs _] using rev_ind.
  - destruct rs; reflexivity.
  - rewrite rev_app_distr, last_last. reflexivity.
Qed.

(* the decoder of a peer that holds the same table and has announced the limit lim *)
Definition peer (st : enc_state) (lim : N) : rstate :=
  mk_rstate (et_entries (e_table st)) (et_max (e_table st)) lim.

Lemma size_updates_spec st lim lo fin :
  tinv (e_table st) -> pend_spec (et_max (e_table st)) lo fin (e_size_update st) -> fin <= lim -> fin <= 4096 ->
  exists t1 upd, encode_size_updates st = EOk (mkEnc t1 (e_max_allowed st) None, upd) /\
    tinv t1 /\ et_max t1 = fin /\
    forall L : nat, (4 <= L)%nat ->
      updates_decode L lim (et_entries (e_table st)) (et_max (e_table st)) upd (et_entries t1) fin /\
      forall rest, reduction_signalled L (peer st lim) (upd ++ rest).
Proof.
  intros Ht [Hlf Hs] Hl H4. unfold encode_size_updates, reduction_signalled, peer.
  destruct st as [t a su]. cbn [e_table e_max_allowed e_size_update r_max r_limit] in *.
  destruct su as [[v|mn v]|].
  - destruct Hs as [-> _]. rewrite (enc_table_resize_spec _ fin Ht). eexists _, _. split; [reflexivity|].
    split; [apply tinv_rsz|]. split; [reflexivity|]. intros L HL.
    pose proof (size_update_ok L lim fin HL Hl H4) as Hu. split; [|right; eauto].
    rewrite <- (app_nil_r (enc_size_update fin)). apply ud_cons with (n := fin); [exact Hu|apply ud_nil].
  - destruct Hs as (-> & -> & _).
    rewrite (enc_table_resize_spec _ lo Ht), (enc_table_resize_spec _ fin (tinv_rsz _ _)).
    eexists _, _. split; [reflexivity|]. split; [apply tinv_rsz|]. split; [reflexivity|]. intros L HL.
    pose proof (size_update_ok L lim lo HL ltac:(lia) ltac:(lia)) as Hu.
    split; [|right; rewrite <- app_assoc; eauto].
    apply ud_cons with (n := lo); [exact Hu|]. rewrite <- (app_nil_r (enc_size_update fin)).
    apply ud_cons with (n := fin); [apply size_update_ok; assumption|apply ud_nil].
  - destruct Hs as [_ ->]. eexists _, _. split; [reflexivity|]. split; [exact Ht|]. split; [reflexivity|].
    intros L HL. split; [apply ud_nil|]. left. exact Hl.
Qed.

(* One block, after the update_max_size calls that precede it ([ups = []]: `encode` alone): by the
   RFC's rules a peer holding the same table reads the submitted fields and holds the same table
   afterwards. *)
Lemma block_spec st lim ups fl : einv st -> e_size_update st = None -> et_max (e_table st) <= lim ->
  match enc_encode (fold_left enc_update_max_size ups st) fl with
  | EOk (st2, out) =>
    einv st2 /\ e_size_update st2 = None /\ et_max (e_table st2) <= last ups lim /\
    forall L : nat, (4 <= L)%nat -> forallb field_ok fl = true ->
      rfc_block_decodes huff_decode_opt L (peer st (last ups lim)) out (submitted fl) (peer st2 (last ups lim))
  | EFail e => e = NoPreviousName /\ block_named fl = false
  end.
Proof.
  intros (Ht & H4 & Ha & _) Hn Hl.
  destruct (fold_spec ups st _ _ (pend_spec_none st Hn)) as (Hspec & Htab & Ha1).
  unfold peer at 1. rewrite Ha in Ha1. rewrite <- Htab in Ht, H4, Hl, Hspec |- *.
  destruct (last_capv st ups _ lim Hl ltac:(lia)) as [Hf1 Hf2]. rewrite Ha in Hf2.
  set (st1 := fold_left enc_update_max_size ups st) in *. set (lim1 := last ups lim) in *.
  fold (peer st1 lim1). unfold enc_encode.
  destruct (size_updates_spec st1 lim1 _ _ Ht Hspec Hf1 Hf2) as (t1 & upd & -> & Ht1 & Hm1 & Hupd).
  cbn [e_table e_max_allowed].
  pose proof (encode_loop_spec fl t1 None Ht1) as Hloop.
  destruct (encode_loop t1 None fl) as [[t2 out]|e]; [|destruct Hloop as (-> & _ & Hb); auto].
  destruct Hloop as (Ht2 & Hm2 & Hdec). unfold einv, pend_le.
  cbn [e_table e_max_allowed e_size_update]. rewrite Hm2, Hm1.
  split; [auto|]. split; [reflexivity|]. split; [exact Hf1|].
  intros L HL Hok. destruct (Hupd L HL) as [Hu Hred]. split; [|apply Hred].
  exists upd, out, (et_entries t1), (et_max t1). unfold peer. cbn [r_dyn r_max r_limit e_table].
  split; [reflexivity|]. split; [rewrite Hm1; exact Hu|]. split; [|auto].
  apply Hdec; [exact HL|lia|exact Hok|exact I].
Qed.

(* a history: per block the values given to update_max_size before it (= the peer's
   SETTINGS_HEADER_TABLE_SIZE values, in order) and the header list submitted *)
Definition history : Type := list (list N * list field_in).

Fixpoint enc_run (st : enc_state) (h : history) : eres (enc_state * list (list N)) :=
  match h with
  | [] => EOk (st, [])
  | (ups, fl) :: h' =>
    match enc_encode (fold_left enc_update_max_size ups st) fl with
    | EFail e => EFail e
    | EOk (st1, out) =>
      match enc_run st1 h' with
      | EFail e => EFail e
      | EOk (st2, outs) => EOk (st2, out :: outs)
      end
    end
  end.

(* the peer: the reference decoder, told the same limits, fed the blocks in order;
   RFC 7541 4.2 (a reduction has to be signalled) is part of [rfc_ref_decode_block] *)
Fixpoint dec_run (L : nat) (rs : rstate) (h : history) (outs : list (list N))
  : option (list (list (list N * list N))) :=
  match h, outs with
  | [], [] => Some []
  | (ups, _) :: h', out :: outs' =>
    match rfc_ref_decode_block huff_decode_opt L (last_limit rs ups) out with
    | Some (fs, rs') =>
      match dec_run L rs' h' outs' with
      | Some r => Some (fs :: r)
      | None => None
      end
    | None => None
    end
  | _, _ => None
  end.

Definition history_ok (h : history) : bool := forallb (fun b => block_ok (snd b)) h.

Definition allowed (m0 : N) (h : history) : N := last (concat (map fst h)) m0.

Lemma run_spec : forall h st lim,
  einv st -> e_size_update st = None -> et_max (e_table st) <= lim ->
  match enc_run st h with
  | EOk (st', outs) =>
    einv st' /\ e_size_update st' = None /\ et_max (e_table st') <= last (concat (map fst h)) lim /\
    forall L : nat, (4 <= L)%nat -> history_ok h = true ->
      dec_run L (peer st lim) h outs = Some (map (fun b => submitted (snd b)) h)
  | EFail e => e = NoPreviousName /\ history_ok h = false
  end.
Proof.
  induction h as [|[ups fl] h IH]; intros st lim Hi Hn Hl; cbn [enc_run map fst concat].
  - cbn [last]. auto.
  - change (history_ok ((ups, fl) :: h)) with (block_named fl && forallb field_ok fl && history_ok h).
    pose proof (block_spec st lim ups fl Hi Hn Hl) as Hb.
    destruct (enc_encode (fold_left enc_update_max_size ups st) fl) as [[st2 out]|e];
      [|destruct Hb as [-> ->]; auto].
    destruct Hb as (Hi2 & Hn2 & Hl2 & Hdec). specialize (IH st2 (last ups lim) Hi2 Hn2 Hl2).
    destruct (enc_run st2 h) as [[st' outs]|e]; [|destruct IH as [-> ->]; auto using andb_false_r].
    rewrite last_app. destruct IH as (Hi' & Hn' & Hl' & Hrun).
    split; [exact Hi'|]. split; [exact Hn'|]. split; [exact Hl'|]. intros L HL Hok.
    apply andb_true_iff in Hok as [Hok Hoks]. apply andb_true_iff in Hok as [_ Hok].
    specialize (Hdec L HL Hok). apply rfc_ref_decode_block_spec in Hdec. unfold peer in Hdec at 1.
    cbn [dec_run map snd]. rewrite last_limit_spec. unfold peer. cbn [r_dyn r_max r_limit].
    rewrite Hdec, (Hrun L HL Hoks). reflexivity.
Qed.

Lemma einv_init m0 : einv (enc_new m0).
Proof.
  unfold einv, tinv, pend_le, enc_new, table_new, DEFAULT_MAX_ALLOWED_SIZE.
  cbn [e_table e_max_allowed e_size_update et_size et_entries et_max table_size]. lia.
Qed.

Theorem enc_reduction_signalled : forall st u ups fl st2 out,
  tinv (e_table st) -> e_size_update st = None ->
  let vs := map (capv st) ups in
  let lo := fold_left N.min vs (capv st u) in
  let fin := last vs (capv st u) in
  lo < et_max (e_table st) ->
  enc_encode (fold_left enc_update_max_size (u :: ups) st) fl = EOk (st2, out) ->
  exists t1 rest,
    (out = enc_size_update lo ++ rest \/ out = enc_size_update lo ++ enc_size_update fin ++ rest) /\
    (lo <> fin -> out = enc_size_update lo ++ enc_size_update fin ++ rest) /\
    et_max t1 = fin /\ encode_loop t1 None fl = EOk (e_table st2, rest) /\
    et_max (e_table st2) = fin.
Proof.
  intros st u ups fl st2 out Ht Hn vs lo fin Hlo Henc.
  destruct (fold_spec (u :: ups) st _ _ (pend_spec_none st Hn)) as (Hspec & Htab & _).
  cbn [map fold_left] in Hspec, Htab, Henc. rewrite last_cons, fold_min_l in Hspec.
  fold vs in Hspec. fold lo in Hspec. fold fin in Hspec. rewrite N.min_r in Hspec by lia.
  remember (fold_left enc_update_max_size ups (enc_update_max_size st u)) as st1 eqn:Est1.
  assert (Ht1 : tinv (e_table st1)) by (rewrite Htab; exact Ht).
  unfold enc_encode, encode_size_updates in Henc. destruct Hspec as [Hlf Hspec].
  destruct (e_size_update st1) as [[x|mn x]|].
  - destruct Hspec as [-> Hx]. assert (Hlx : lo = fin) by lia.
    rewrite (enc_table_resize_spec _ fin Ht1) in Henc. cbn [e_table e_max_allowed] in Henc.
    pose proof (encode_loop_spec fl (rsz (e_table st1) fin) None (tinv_rsz _ _)) as Hl.
    destruct (encode_loop (rsz (e_table st1) fin) None fl) as [[t2 o]|e] eqn:El; [|discriminate].
    injection Henc as <- <-. destruct Hl as (_ & Hm2 & _).
    exists (rsz (e_table st1) fin), o. cbn [e_table rsz et_max] in *.
    rewrite Hlx. split; [left; reflexivity|]. split; [congruence|]. auto.
  - destruct Hspec as (-> & -> & Hm1 & Hm2).
    rewrite (enc_table_resize_spec _ lo Ht1) in Henc.
    rewrite (enc_table_resize_spec _ fin (tinv_rsz _ _)) in Henc. cbn [e_table e_max_allowed] in Henc.
    pose proof (encode_loop_spec fl (rsz (rsz (e_table st1) lo) fin) None (tinv_rsz _ _)) as Hl.
    destruct (encode_loop (rsz (rsz (e_table st1) lo) fin) None fl) as [[t2 o]|e] eqn:El; [|discriminate].
    injection Henc as <- <-. destruct Hl as (_ & Hm3 & _).
    exists (rsz (rsz (e_table st1) lo) fin), o. cbn [e_table rsz et_max] in *.
    rewrite <- app_assoc. auto.
  - destruct Hspec as [Hl1 Hl2]. lia.
Qed.

Local Open Scope string_scope.

Definition demo_history : history :=
  [ ([], [FI (Some (bstr ":method")) (bstr "GET") false;
          FI (Some (bstr ":path")) (bstr "/index.php") false;
          FI (Some (bstr "x-custom")) (bstr "one") false;
          FI None (bstr "two") false;
          FI (Some (bstr "authorization")) (bstr "secret") true;
          FI (Some (bstr "x-token")) (bstr "hunter2") true]);
    ([100; 4096], [FI (Some (bstr "x-custom")) (bstr "one") false;
                   FI (Some (bstr "x-custom")) (bstr "three") false;
                   FI (Some (bstr "accept")) (bstr "") false]);
    ([0], [FI (Some (bstr "x-custom")) (bstr "one") false]) ].

Example demo_history_ok : history_ok demo_history = true.
Proof. vm_compute. reflexivity. Qed.

Example demo_roundtrip :
  history_ok demo_history = true /\
  match enc_run (enc_new 4096) demo_history with
  | EOk (_, outs) =>
    dec_run 4 (rstate_init 4096) demo_history outs
    = Some (map (fun b => submitted (snd b)) demo_history) /\
    map (fun o => hd_error o) outs = [Some 130; Some 63; Some 32]
  | EFail _ => False
  end.
Proof. vm_compute. auto. Qed.

Example demo_reduction :
  let st := enc_new 4096 in
  tinv (e_table st) /\ e_size_update st = None /\
  fold_left N.min (map (capv st) [4096]) (capv st 100) < et_max (e_table st) /\
  exists st2 out, enc_encode (fold_left enc_update_max_size [100; 4096] st)
                             [FI (Some (bstr "a")) (bstr "b") false] = EOk (st2, out).
Proof.
  cbv zeta. split; [split; vm_compute; [reflexivity|discriminate]|].
  split; [reflexivity|]. split; [vm_compute; reflexivity|].
  eexists _, _. vm_compute. reflexivity.
Qed.
