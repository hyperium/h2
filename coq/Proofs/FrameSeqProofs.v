(* C12 for sequences of frames: the single-frame theorems lifted to every list of well-formed frames, for
   the reference decoder (Ref/Rfc9113Frame.v) and for the model's reader (Model/ReadBuf.v) taken one
   FramedRead::poll_next ([poll], Model/WireCodec.v) at a time.  A HEADERS / PUSH_PROMISE with its
   CONTINUATION frames is ONE logical frame. *)
From H2V Require Import Base.Tac Base.Bytes Gen.FrameConsts Ref.Rfc9113Frame Model.FrameCodec Model.WriteBuf
  Model.ReadBuf Model.WireCodec Proofs.WriteBufProofs Proofs.FrameCodecProofs Proofs.ReadBufProofs.
From H2V Require Proofs.DataPathProofs.
Local Open Scope N_scope.

Notation strict_prefix := DataPathProofs.strict_prefix.

Lemma rfc_split_fuel : forall f1 f2 bs,
  (length bs < f1)%nat -> (length bs < f2)%nat -> rfc_split f1 bs = rfc_split f2 bs.
Proof.
  induction f1 as [|f1 IH]; intros f2 bs H1 H2; [lia|]. destruct f2 as [|f2]; [lia|].
  cbn [rfc_split]. destruct (declared_length bs) as [len|]; [|reflexivity].
  destruct (9 + len <=? olen bs) eqn:E; [|reflexivity]. apply N.leb_le in E.
  assert (Hl : (length (drop (9 + len) bs) + 9 <= length bs)%nat).
  { unfold drop, olen in *. rewrite skipn_length. lia. }
  rewrite (IH f2 (drop (9 + len) bs)) by lia. reflexivity.
Qed.

Lemma declared_length_app a b len : declared_length a = Some len -> declared_length (a ++ b) = Some len.
Proof. destruct a as [|x [|y [|z a]]]; cbn [declared_length app]; try discriminate; auto. Qed.

Lemma rfc_split_app : forall fuel a fa,
  rfc_split fuel a = (fa, []) ->
  forall b F, (length (a ++ b) < F)%nat ->
  rfc_split F (a ++ b) = (fa ++ fst (rfc_frames b), snd (rfc_frames b)).
Proof.
  (* where the cut of [a] stops with nothing left over, [b] is cut as it would be alone *)
  assert (Base : forall b F, (length b < F)%nat -> rfc_split F b = (fst (rfc_frames b), snd (rfc_frames b))).
  { intros b F HF. rewrite <- surjective_pairing. apply rfc_split_fuel; lia. }
  induction fuel as [|fuel IH]; intros a fa H b F HF; cbn [rfc_split] in H.
  { injection H as <- ->. apply Base. exact HF. }
  destruct (declared_length a) as [len|] eqn:Ed; [|injection H as <- ->; apply Base; exact HF].
  destruct (9 + len <=? olen a) eqn:E; [|injection H as <- Ha; subst a; discriminate Ed].
  destruct (rfc_split fuel (drop (9 + len) a)) as [fs t] eqn:Er. injection H as <- ->.
  apply N.leb_le in E.
  destruct F as [|F]; [lia|]. cbn [rfc_split]. rewrite (declared_length_app _ b _ Ed).
  change take with takeN. change drop with dropN in *. change olen with lenN in *.
  rewrite lenN_app, (proj2 (N.leb_le _ _)) by lia.
  rewrite takeN_app_le, dropN_app_le by exact E.
  rewrite (IH _ _ Er b F); [reflexivity|].
  pose proof (lenN_dropN (9 + len) a) as Hl.
  rewrite app_length in *. unfold lenN in *. lia.
Qed.

Lemma rfc_frames_app a b fa :
  rfc_frames a = (fa, []) -> rfc_frames (a ++ b) = (fa ++ fst (rfc_frames b), snd (rfc_frames b)).
Proof. unfold rfc_frames at 1 2. intros H. eapply rfc_split_app; [exact H|lia]. Qed.

Lemma rfc_parse_all_app max : forall x y wx wy,
  rfc_parse_all max x = Some wx -> rfc_parse_all max y = Some wy ->
  rfc_parse_all max (x ++ y) = Some (wx ++ wy).
Proof.
  induction x as [|f x IH]; intros y wx wy Hx Hy; cbn [rfc_parse_all app] in *.
  - inversion Hx; subst. exact Hy.
  - destruct (rfc_parse_frame max f) as [w| |]; try discriminate.
    destruct (rfc_parse_all max x) as [wx'|] eqn:E; [|discriminate]. cbn [option_map] in Hx.
    inversion Hx; subst. rewrite (IH y wx' wy eq_refl Hy). reflexivity.
Qed.

Lemma rfc_reassemble_app : forall wa cur ra,
  rfc_reassemble cur wa = Some ra ->
  forall wb rb, rfc_reassemble None wb = Some rb ->
  rfc_reassemble cur (wa ++ wb) = Some (ra ++ rb).
Proof.
  induction wa as [|w wa IH]; intros cur ra Ha wb rb Hb; cbn [rfc_reassemble app] in *.
  - destruct cur; [discriminate|]. injection Ha as <-. exact Hb.
  - (* the arms that put a frame in front of the recursive result *)
    assert (Hcons : forall x cur', option_map (cons x) (rfc_reassemble cur' wa) = Some ra ->
                      option_map (cons x) (rfc_reassemble cur' (wa ++ wb)) = Some (ra ++ rb)).
    { intros x cur' H. destruct (rfc_reassemble cur' wa) as [r|] eqn:E; [|discriminate].
      injection H as <-. rewrite (IH _ _ E _ _ Hb). reflexivity. }
    destruct cur as [o|].
    + (* a block is open: only a CONTINUATION on its stream is accepted, and END_HEADERS closes the block *)
      destruct w as [| | | | | | | | |s eh fr|]; try discriminate Ha.
      destruct (s =? open_stream o); [|discriminate Ha].
      destruct eh; [exact (Hcons _ _ Ha)|exact (IH _ _ Ha _ _ Hb)].
    + (* no block open: a CONTINUATION fails; HEADERS / PUSH_PROMISE without END_HEADERS open a block and
         an unknown type is dropped (recursion), everything else is a frame of the result *)
      destruct w as [|s es eh p fr| | | |s eh pr fr| | | | |]; try discriminate Ha; try destruct eh;
        first [exact (IH _ _ Ha _ _ Hb) | exact (Hcons _ _ Ha)].
Qed.

Theorem rfc_decode_stream_app max a b wa wb :
  rfc_decode_stream max a = Some wa -> rfc_decode_stream max b = Some wb ->
  rfc_decode_stream max (a ++ b) = Some (wa ++ wb).
Proof.
  unfold rfc_decode_stream. intros Ha Hb.
  destruct (rfc_frames a) as [fa ta] eqn:Ea. destruct ta; [|discriminate].
  rewrite (rfc_frames_app a b fa Ea).
  destruct (rfc_frames b) as [fb tb] eqn:Eb. cbn [fst snd]. destruct tb; [|discriminate].
  destruct (rfc_parse_all max fa) as [xa|] eqn:Pa; [|discriminate].
  destruct (rfc_parse_all max fb) as [xb|] eqn:Pb; [|discriminate].
  rewrite (rfc_parse_all_app max fa fb xa xb Pa Pb).
  apply rfc_reassemble_app; assumption.
Qed.

Definition frames_wf (max : N) (fs : list frame) : bool := forallb (frame_wf max) fs.

(* C12 for sequences, reference side: the concatenation of the encodings of well-formed frames is cut
   by the Length fields, parsed and reassembled (RFC 9113 4.1, 4.3, 6.10) into exactly their values *)
Theorem frames_roundtrip_stream : forall max fs,
  42 <= max -> max <= MAX_MAX_FRAME_SIZE -> frames_wf max fs = true ->
  exists bs, encode_all max fs = EOk bs /\ rfc_decode_stream max bs = Some (map wire_value_of fs).
Proof.
  intros max fs H42 Hmax. induction fs as [|f fs IH]; intros Hwf.
  - exists []. split; reflexivity.
  - cbn [frames_wf forallb] in Hwf. apply andb_true_iff in Hwf. destruct Hwf as [Hf Hfs].
    destruct (IH Hfs) as (bs & He & Hd).
    destruct (C12_roundtrip_stream max f H42 Hmax Hf) as (b1 & He1 & Hd1).
    exists (b1 ++ bs). cbn [encode_all map]. rewrite He1, He. split; [reflexivity|].
    change (wire_value_of f :: map wire_value_of fs) with ([wire_value_of f] ++ map wire_value_of fs).
    apply rfc_decode_stream_app; assumption.
Qed.

(* a complete physical frame, as the length-delimited layer sees it *)
Definition framed (max : N) (fr : list N) : Prop :=
  exists l0 l1 l2 r, fr = l0 :: l1 :: l2 :: r /\ (l0 * 256 + l1) * 256 + l2 <= max /\
                     lenN fr = (l0 * 256 + l1) * 256 + l2 + 9.

Lemma framed_encoded max k fl sid p :
  lenN p <= max -> lenN p < 16777216 -> framed max (head_encode k fl sid (lenN p) ++ p).
Proof.
  intros Hm H24.
  assert (Hl : lenN (head_encode k fl sid (lenN p) ++ p) = lenN p + 9)
    by (rewrite lenN_app, lenN_head_encode; lia).
  unfold head_encode, enc_u24 in *. cbn [app] in *.
  eexists _, _, _, _. split; [reflexivity|]. rewrite dec_u24_enc by exact H24. auto.
Qed.

Lemma framed_parsed max bs l : model_parse max bs = POk l -> framed max bs /\ load_frame bs = POk l.
Proof.
  unfold model_parse. destruct bs as [|l0 [|l1 [|l2 r]]]; try discriminate.
  destruct (max <? (l0 * 256 + l1) * 256 + l2) eqn:Emax; [discriminate|]. apply N.ltb_ge in Emax.
  destruct (lenN (l0 :: l1 :: l2 :: r) =? (l0 * 256 + l1) * 256 + l2 + ld_length_adjustment) eqn:El; [|discriminate].
  apply N.eqb_eq in El. intros Hl. split; [exists l0, l1, l2, r; auto|exact Hl].
Qed.

Lemma framed_len max fr : framed max fr -> (9 <= length fr)%nat.
Proof. intros (l0 & l1 & l2 & r & -> & _ & Hl). unfold lenN in Hl. lia. Qed.

Lemma framed_out max fr more : framed max fr -> ld_decode max LdHead (fr ++ more) = LdOut fr more.
Proof. intros (l0 & l1 & l2 & r & -> & Hm & Hl). apply ld_decode_head; assumption. Qed.

Lemma framed_need max fr pre : framed max fr -> strict_prefix pre fr ->
  exists s, ld_decode max LdHead pre = LdNeed s.
Proof.
  intros (l0 & l1 & l2 & r & -> & Hm & Hl) (suf & Hne & Hp).
  destruct pre as [|a [|b [|c pre]]]; try (exists LdHead; reflexivity).
  cbn [app] in Hp. injection Hp as Ea Eb Ec Er. subst a b c. cbn [ld_decode].
  destruct (max <? (l0 * 256 + l1) * 256 + l2) eqn:E; [apply N.ltb_lt in E; lia|].
  unfold ld_data, ld_length_adjustment.
  assert (Hs : 1 <= lenN suf) by (destruct suf; [congruence|rewrite lenN_cons; lia]).
  assert (Hlen : lenN (l0 :: l1 :: l2 :: pre) + lenN suf = lenN (l0 :: l1 :: l2 :: r)).
  { rewrite <- Er. rewrite !lenN_cons, lenN_app. lia. }
  destruct (lenN (l0 :: l1 :: l2 :: pre) <? (l0 * 256 + l1) * 256 + l2 + 9) eqn:E2; [eauto|].
  apply N.ltb_ge in E2. lia.
Qed.

Lemma poll_enough {HS} (ops : hpack_ops HS) : forall F1 F2 (st : rstate HS),
  (length (r_buf st) < F1)%nat -> (length (r_buf st) < F2)%nat -> poll_next ops F1 st = poll_next ops F2 st.
Proof.
  induction F1 as [|F1 IH]; intros F2 st H1 H2; [lia|].
  destruct F2 as [|F2]; [lia|].
  cbn [poll_next]. destruct (r_dead st); [reflexivity|].
  destruct (ld_decode (r_max_frame st) (r_ld st) (r_buf st)) as [s|fr rest|] eqn:El; try reflexivity.
  destruct (decode_frame ops (r_max_hls st) (r_max_cont st) (r_partial st) (r_hs st) fr) as [[pt hs] [|e|e]] eqn:Ed;
    try reflexivity.
  pose proof (round_shrinks ops st _ _ _ _ _ El Ed ltac:(discriminate)). apply IH; cbn [r_buf set_core]; lia.
Qed.

Lemma poll_unfold {HS} (ops : hpack_ops HS) (st : rstate HS) :
  poll ops st =
  if r_dead st then (st, None) else
  match ld_decode (r_max_frame st) (r_ld st) (r_buf st) with
  | LdNeed s => (set_core st (r_buf st) s (r_partial st) (r_hs st) false, None)
  | LdError => (set_core st (r_buf st) (r_ld st) (r_partial st) (r_hs st) true,
                Some (EvError (PEGoAway [] reason_FRAME_SIZE_ERROR)))
  | LdOut bytes rest =>
      let '(pt, hs, d) := decode_frame ops (r_max_hls st) (r_max_cont st) (r_partial st) (r_hs st) bytes in
      match d with
      | DNone => poll ops (set_core st rest LdHead pt hs false)
      | DEvent e => (set_core st rest LdHead pt hs false, Some e)
      | DStop e => (set_core st rest LdHead pt hs true, Some e)
      end
  end.
Proof.
  unfold poll at 1. cbn [poll_next]. destruct (r_dead st); [reflexivity|].
  destruct (ld_decode (r_max_frame st) (r_ld st) (r_buf st)) as [s|fr rest|] eqn:El; try reflexivity.
  destruct (decode_frame ops (r_max_hls st) (r_max_cont st) (r_partial st) (r_hs st) fr) as [[pt hs] [|e|e]] eqn:Ed;
    try reflexivity.
  pose proof (round_shrinks ops st _ _ _ _ _ El Ed ltac:(discriminate)). apply poll_enough; cbn [r_buf set_core]; lia.
Qed.

(* [pump] (the reader of C12) is the iteration of poll_next until Pending *)
Lemma drain_poll {HS} (ops : hpack_ops HS) (st : rstate HS) :
  drain ops st =
  match poll ops st with
  | (st', None) => (st', [])
  | (st', Some e) => let (s2, evs) := drain ops st' in (s2, e :: evs)
  end.
Proof.
  revert st. apply (drain_induction ops). intros st IH. rewrite drain_unfold, poll_unfold.
  destruct (r_dead st); [reflexivity|].
  destruct (ld_decode (r_max_frame st) (r_ld st) (r_buf st)) as [s|fr rest|];
    [reflexivity| |rewrite drain_dead by reflexivity; reflexivity].
  destruct (decode_frame ops (r_max_hls st) (r_max_cont st) (r_partial st) (r_hs st) fr)
    as [[pt hs] [|e|e]] eqn:Ed; [ |reflexivity|rewrite drain_dead by reflexivity; reflexivity].
  apply (IH fr rest pt hs DNone eq_refl Ed). discriminate.
Qed.

Lemma poll_frame {HS} (ops : hpack_ops HS) (st : rstate HS) fr more :
  r_dead st = false -> r_ld st = LdHead -> r_buf st = fr ++ more -> framed (r_max_frame st) fr ->
  poll ops st =
    let '(pt, hs, d) := decode_frame ops (r_max_hls st) (r_max_cont st) (r_partial st) (r_hs st) fr in
    match d with
    | DNone => poll ops (set_core st more LdHead pt hs false)
    | DEvent e => (set_core st more LdHead pt hs false, Some e)
    | DStop e => (set_core st more LdHead pt hs true, Some e)
    end.
Proof.
  intros Hd Hl Hb Hf. rewrite poll_unfold, Hd, Hl, Hb, (framed_out _ _ more Hf). reflexivity.
Qed.

Lemma poll_need {HS} (ops : hpack_ops HS) (st : rstate HS) fr :
  r_dead st = false -> r_ld st = LdHead -> framed (r_max_frame st) fr -> strict_prefix (r_buf st) fr ->
  snd (poll ops st) = None.
Proof.
  intros Hd Hl Hf Hp. rewrite poll_unfold, Hd, Hl.
  destruct (framed_need _ _ _ Hf Hp) as [s Hs]. rewrite Hs. reflexivity.
Qed.

(* a logical frame: physical frames of which only the last makes decode_frame return a frame *)
Inductive lrun (mh mc rmax : N) : option partial -> list N -> list (list N) -> event (list N) -> list N -> Prop :=
| lrun_last : forall pt hs fr ev hs',
    framed rmax fr -> decode_frame hp_raw mh mc pt hs fr = (None, hs', DEvent ev) ->
    lrun mh mc rmax pt hs [fr] ev hs'
| lrun_more : forall pt hs fr pt' hs1 frs ev hs',
    framed rmax fr -> decode_frame hp_raw mh mc pt hs fr = (pt', hs1, DNone) ->
    lrun mh mc rmax pt' hs1 frs ev hs' ->
    lrun mh mc rmax pt hs (fr :: frs) ev hs'.

Lemma lrun_nonempty mh mc rmax pt hs frs ev hs' :
  lrun mh mc rmax pt hs frs ev hs' -> (9 <= length (concat frs))%nat.
Proof.
  intros [pt0 hs0 fr ev0 hs1 Hf _|pt0 hs0 fr pt1 hs1 frs0 ev0 hs2 Hf _ _];
    cbn [concat]; rewrite app_length; pose proof (framed_len _ _ Hf); lia.
Qed.

Lemma poll_lrun mh mc rmax pt hs frs ev hs' :
  lrun mh mc rmax pt hs frs ev hs' ->
  forall (st : rstate (list N)) more,
    r_dead st = false -> r_ld st = LdHead -> r_max_hls st = mh -> r_max_cont st = mc -> r_max_frame st = rmax ->
    r_partial st = pt -> r_hs st = hs -> r_buf st = concat frs ++ more ->
    poll hp_raw st = (set_core st more LdHead None hs' false, Some ev).
Proof.
  intros H. induction H as [pt hs fr ev hs' Hf Hdf|pt hs fr pt' hs1 frs ev hs' Hf Hdf _ IH];
    intros st more Hd Hl Hmh Hmc Hmf Hpt Hhs Hb.
  - cbn [concat] in Hb. rewrite app_nil_r in Hb. subst mh mc rmax pt hs.
    rewrite (poll_frame hp_raw st fr more Hd Hl Hb Hf), Hdf. reflexivity.
  - cbn [concat] in Hb. rewrite <- app_assoc in Hb. subst mh mc rmax pt hs.
    rewrite (poll_frame hp_raw st fr _ Hd Hl Hb Hf), Hdf.
    rewrite (IH (set_core st (concat frs ++ more) LdHead pt' hs1 false) more); reflexivity.
Qed.

Lemma poll_lrun_prefix mh mc rmax pt hs frs ev hs' :
  lrun mh mc rmax pt hs frs ev hs' ->
  forall (st : rstate (list N)),
    r_dead st = false -> r_ld st = LdHead -> r_max_hls st = mh -> r_max_cont st = mc -> r_max_frame st = rmax ->
    r_partial st = pt -> r_hs st = hs -> strict_prefix (r_buf st) (concat frs) ->
    snd (poll hp_raw st) = None.
Proof.
  intros H. induction H as [pt hs fr ev hs' Hf Hdf|pt hs fr pt' hs1 frs ev hs' Hf Hdf _ IH];
    intros st Hd Hl Hmh Hmc Hmf Hpt Hhs Hp.
  - cbn [concat] in Hp. rewrite app_nil_r in Hp. subst rmax. eapply poll_need; eassumption.
  - cbn [concat] in Hp. destruct Hp as (suf & Hne & Hp).
    destruct (DataPathProofs.app_split _ _ _ _ Hp) as [(l & A1 & A2)|(l & A0 & A1 & A2)].
    + subst mh mc rmax pt hs.
      rewrite (poll_frame hp_raw st fr l Hd Hl A1 Hf), Hdf.
      apply IH; try reflexivity. cbn [r_buf set_core]. exists suf. split; [exact Hne|symmetry; exact A2].
    + subst rmax. eapply poll_need; try eassumption. exists l. split; [exact A0|symmetry; exact A1].
Qed.

Definition raw_event (f : frame) : event (list N) :=
  if is_header_frame f then EvHeaders (strip_block f) (frame_block f) else EvFrame f.

Lemma raw_event_frame_raw_event f : raw_event_frame (raw_event f) = Some f.
Proof. destruct f; reflexivity. Qed.

Lemma lrun_continuations mh mc rmax smax sid :
  1 <= smax -> smax <= MAX_MAX_FRAME_SIZE -> smax <= rmax -> sid < 2147483648 ->
  forall fuel rest F0 acc cnt,
    (length rest < fuel)%nat -> frame_sid F0 = sid ->
    cnt + N.of_nat (length (cont_frames fuel smax sid rest)) <= mc + 1 ->
    lrun mh mc rmax (Some {| pt_frame := F0; pt_buf := []; pt_count := cnt |}) acc
         (cont_frames fuel smax sid rest) (EvHeaders (set_end_headers F0) (acc ++ rest)) (acc ++ rest).
Proof.
  intros H1 H2 Hr Hs31. pose proof H2 as H2'. unfold MAX_MAX_FRAME_SIZE in H2'.
  induction fuel as [|fuel IH]; intros rest F0 acc cnt Hf Hsid Hcnt; [lia|].
  cbn [cont_frames] in *. destruct (smax <? lenN rest) eqn:E.
  - apply N.ltb_lt in E. pose proof (length_dropN_lt smax rest H1 E) as Hlt.
    assert (Hlt' : lenN (takeN smax rest) = smax) by (rewrite lenN_takeN; lia).
    cbn [length] in Hcnt.
    pose proof (cont_frames_nonempty fuel smax sid (dropN smax rest) ltac:(lia)) as Hne.
    assert (Hlen1 : 1 <= N.of_nat (length (cont_frames fuel smax sid (dropN smax rest)))).
    { destruct (cont_frames fuel smax sid (dropN smax rest)); [congruence | cbn [length]; lia]. }
    rewrite <- Hlt' at 1. eapply lrun_more.
    + apply framed_encoded; lia.
    + rewrite (decode_continuation mh mc _ acc 0 sid (takeN smax rest) Hs31)
        by (cbn [pt_frame pt_buf pt_count]; auto; intros; lia).
      change (0 =? 0) with true. cbv iota. cbn [pt_frame pt_count]. reflexivity.
    + replace (acc ++ rest) with ((acc ++ takeN smax rest) ++ dropN smax rest)
        by (rewrite <- app_assoc, takeN_dropN; reflexivity).
      apply IH; [lia|exact Hsid|lia].
  - apply N.ltb_ge in E. eapply lrun_last.
    + apply framed_encoded; lia.
    + unfold headers_END_HEADERS.
      rewrite (decode_continuation mh mc _ acc 4 sid rest Hs31)
        by (cbn [pt_frame pt_buf pt_count]; auto; intros; discriminate).
      change (4 =? 0) with false. cbv iota. cbn [pt_frame]. reflexivity.
Qed.

Lemma decode_frame_single mh mc hs bs f :
  load_frame bs = POk (LdFrame f) ->
  (is_header_frame f = true -> has_bit (frame_flags f) headers_END_HEADERS = true) ->
  decode_frame hp_raw mh mc None hs bs =
    (None, (if is_header_frame f then frame_block f else hs), DEvent (raw_event f)).
Proof.
  intros Hlf Heh. unfold decode_frame.
  assert (H9 : exists h p, parse_head bs = Some (h, p)).
  { unfold load_frame in Hlf. destruct (parse_head bs) as [[h p]|]; [eauto | discriminate]. }
  destruct H9 as (h & p & Hph). rewrite Hph. cbn [andb]. rewrite Hlf. unfold raw_event.
  destruct (is_header_frame f) eqn:Eh; [|reflexivity].
  cbn [hp_raw hp_load hp_begin app hpack_verdict]. rewrite (Heh eq_refl). reflexivity.
Qed.

Definition cont_ok (smax rmax hls : N) (f : frame) : Prop :=
  continuations_needed smax f <= calc_max_continuation_frames hls rmax + 1.

(* a header block that does not fit one frame: HEADERS / PUSH_PROMISE without END_HEADERS carrying
   [prefix] (the promised stream id) and the first [room] octets, then the CONTINUATION frames *)
Definition block_frames (smax k flags sid : N) (prefix : list N) (room : N) (block : list N) : list (list N) :=
  (head_encode k (flags - headers_END_HEADERS) sid (lenN (prefix ++ takeN room block)) ++ prefix ++ takeN room block)
    :: cont_frames (S (length (dropN room block))) smax sid (dropN room block).

Lemma encode_block_frames smax k flags sid prefix room block :
  1 <= smax -> smax <= MAX_MAX_FRAME_SIZE -> lenN prefix + room = smax -> room < lenN block ->
  has_bit flags headers_END_HEADERS = true ->
  with_continuations smax sid (header_block_encode k flags sid prefix block (smax + HEADER_LEN))
    = EOk (concat (block_frames smax k flags sid prefix room block)).
Proof.
  intros H1 Hmax Hroom Hlong Hbit. rewrite with_continuations_split by (assumption || lia).
  replace (smax - lenN prefix) with room by lia. unfold block_frames. cbn [concat].
  rewrite lenN_app, lenN_takeN.
  replace (lenN prefix + N.min room (lenN block)) with smax by lia. reflexivity.
Qed.

(* [Hdec]: the reader opens a header block on the first frame, whatever part of the block it carries *)
Lemma lrun_block_frames mh mc rmax smax k flags sid prefix room block hs F0 :
  1 <= smax -> smax <= MAX_MAX_FRAME_SIZE -> smax <= rmax -> sid <> 0 -> sid < 2147483648 ->
  lenN prefix + room = smax -> room < lenN block ->
  (forall part,
     decode_frame hp_raw mh mc None hs
       (head_encode k (flags - headers_END_HEADERS) sid (lenN (prefix ++ part)) ++ prefix ++ part)
     = (Some {| pt_frame := F0; pt_buf := []; pt_count := 0 |}, part, DNone)) ->
  frame_sid F0 = sid ->
  N.of_nat (length (cont_frames (S (length (dropN room block))) smax sid (dropN room block))) <= mc + 1 ->
  lrun mh mc rmax None hs (block_frames smax k flags sid prefix room block)
       (EvHeaders (set_end_headers F0) block) block.
Proof.
  intros H1 Hmax Hr Hs0 Hs31 Hroom Hlong Hdec Hsid Hcnt.
  pose proof Hmax as Hmax'. unfold MAX_MAX_FRAME_SIZE in Hmax'.
  eapply lrun_more; [|apply Hdec|].
  - apply framed_encoded; rewrite lenN_app, lenN_takeN; lia.
  - pose proof (lrun_continuations mh mc rmax smax sid H1 Hmax Hr Hs31 _ (dropN room block) F0
                  (takeN room block) 0 (Nat.lt_succ_diag_r _) Hsid) as Hl.
    rewrite takeN_dropN in Hl. apply Hl. lia.
Qed.

Theorem encode_lrun smax rmax hls f :
  42 <= smax -> smax <= MAX_MAX_FRAME_SIZE -> smax <= rmax ->
  frame_wf smax f = true -> cont_ok smax rmax hls f ->
  exists frs, encode smax f = EOk (concat frs) /\
    forall mh hs, exists hs', lrun mh (calc_max_continuation_frames hls rmax) rmax None hs frs (raw_event f) hs'.
Proof.
  intros H42 Hmax Hr Hwf Hcont. unfold cont_ok in Hcont.
  set (mc := calc_max_continuation_frames hls rmax) in *.
  destruct (single_frame smax f) eqn:Es.
  { destruct (C12_roundtrip smax f H42 Hmax Hwf Es) as (bs & He & _ & Hm).
    exists [bs]. cbn [concat]. rewrite app_nil_r. split; [exact He|]. intros mh hs.
    apply (model_parse_max_mono smax rmax) in Hm; [|exact Hr].
    destruct (framed_parsed rmax bs _ Hm) as [Hfr Hlf].
    eexists. apply lrun_last; [exact Hfr|].
    apply decode_frame_single; [exact Hlf|].
    intros Hh. destruct f; try discriminate; cbn [frame_flags].
    - apply frame_wf_headers in Hwf as (_ & _ & [->| ->] & _); reflexivity.
    - apply frame_wf_push_promise in Hwf as (_ & _ & -> & _). reflexivity. }
  destruct f as [| sid flags dep block | | sid flags promised block | | | | |]; try discriminate;
    cbn [single_frame] in Es; apply N.leb_gt in Es; cbn [continuations_needed encode] in *.
  - (* HEADERS + CONTINUATION *)
    apply frame_wf_headers in Hwf as (Hs & Hs0 & Hfl & ->). apply N.eqb_neq in Hs0.
    assert (Hbit : has_bit flags headers_END_HEADERS = true) by (destruct Hfl as [->| ->]; reflexivity).
    rewrite (proj2 (N.ltb_lt _ _) Es) in Hcont. unfold headers_encode. rewrite Hbit.
    exists (block_frames smax kind_headers flags sid [] smax block).
    split; [apply encode_block_frames; (assumption || reflexivity || lia)|].
    intros mh hs. exists block.
    replace (raw_event (FHeaders sid flags None block))
      with (EvHeaders (set_end_headers (FHeaders sid (flags - 4) None [])) block)
      by (destruct Hfl as [->| ->]; reflexivity).
    apply lrun_block_frames; try (assumption || reflexivity || lia).
    intros part. apply (decode_open_headers mh mc hs (flags - 4) sid part Hs0 Hs).
    destruct Hfl as [->| ->]; [left|right]; reflexivity.
  - (* PUSH_PROMISE + CONTINUATION *)
    apply frame_wf_push_promise in Hwf as (Hs & Hs0 & -> & Hpr). apply N.eqb_neq in Hs0.
    assert (Hroom : lenN (enc_u32 promised) + (smax - 4) = smax)
      by (change (lenN (enc_u32 promised)) with 4; lia).
    assert (Hlong : smax - 4 < lenN block) by lia.
    rewrite (proj2 (N.ltb_lt _ _) Hlong) in Hcont.
    exists (block_frames smax kind_push_promise 4 sid (enc_u32 promised) (smax - 4) block).
    split; [apply encode_block_frames; (assumption || reflexivity || lia)|].
    intros mh hs. exists block.
    apply (lrun_block_frames mh mc rmax smax kind_push_promise 4 sid (enc_u32 promised) (smax - 4) block hs
             (FPushPromise sid 0 promised [])); try (assumption || reflexivity || lia).
    intros part. apply (decode_open_push_promise mh mc hs sid promised part Hs0 Hs Hpr).
Qed.

(* a reader between two frames: alive, no frame half read, no header block open *)
Definition rclean (rmax hls : N) (st : rstate (list N)) : Prop :=
  r_dead st = false /\ r_ld st = LdHead /\ r_partial st = None /\
  r_max_frame st = rmax /\ r_max_cont st = calc_max_continuation_frames hls rmax.

Lemma rclean_set_core rmax hls st b hs :
  rclean rmax hls st -> rclean rmax hls (set_core st b LdHead None hs false).
Proof. intros (_ & _ & _ & A & B). unfold rclean. cbn [set_core r_dead r_ld r_partial r_max_frame r_max_cont]. auto. Qed.

Lemma rclean_init rmax hls hs0 : rclean rmax hls (rinit hs0 rmax hls).
Proof. unfold rclean, rinit. cbn. auto. Qed.

(* what the encoder writes for a well-formed frame value [f], in front of ANY further octets, comes out
   of ONE call of poll_next as the event carrying [f], and exactly the further octets stay buffered;
   any strict prefix of it yields Pending *)
Theorem poll_logical smax rmax hls f :
  42 <= smax -> smax <= MAX_MAX_FRAME_SIZE -> smax <= rmax ->
  frame_wf smax f = true -> cont_ok smax rmax hls f ->
  exists bs, encode smax f = EOk bs /\ (9 <= length bs)%nat /\
    (forall st more, rclean rmax hls st -> r_buf st = bs ++ more ->
       exists hs', poll hp_raw st = (set_core st more LdHead None hs' false, Some (raw_event f))) /\
    (forall st, rclean rmax hls st -> strict_prefix (r_buf st) bs -> snd (poll hp_raw st) = None).
Proof.
  intros H42 Hmax Hr Hwf Hc.
  destruct (encode_lrun smax rmax hls f H42 Hmax Hr Hwf Hc) as (frs & He & Hl).
  exists (concat frs). split; [exact He|]. split; [|split].
  - destruct (Hl 0 []) as (hs' & H). eapply lrun_nonempty. exact H.
  - intros st more (Hd & Hld & Hpt & Hmf & Hmc) Hb.
    destruct (Hl (r_max_hls st) (r_hs st)) as (hs' & H). exists hs'.
    eapply poll_lrun; try eassumption; try reflexivity.
  - intros st (Hd & Hld & Hpt & Hmf & Hmc) Hp.
    destruct (Hl (r_max_hls st) (r_hs st)) as (hs' & H).
    eapply poll_lrun_prefix; try eassumption; try reflexivity.
Qed.

Lemma drain_frames smax rmax hls :
  42 <= smax -> smax <= MAX_MAX_FRAME_SIZE -> smax <= rmax ->
  forall fs, frames_wf smax fs = true -> Forall (cont_ok smax rmax hls) fs ->
  exists bs, encode_all smax fs = EOk bs /\
    forall st w tail, rclean rmax hls st -> r_buf st = w -> w ++ tail = bs ->
      exists fs1 fs2, fs = fs1 ++ fs2 /\
        map raw_event_frame (snd (drain hp_raw st)) = map Some fs1 /\ (tail = [] -> fs2 = []).
Proof.
  intros H42 Hmax Hr. induction fs as [|f fs IH]; intros Hwf Hc.
  - exists []. split; [reflexivity|]. intros st w tail (Hd & Hl & _) Hb E.
    apply app_eq_nil in E. destruct E as [-> _]. exists [], []. split; [reflexivity|].
    rewrite drain_unfold, Hd, Hl, Hb. auto.
  - cbn [frames_wf forallb] in Hwf. apply andb_true_iff in Hwf. destruct Hwf as [Hf Hfs].
    inversion Hc as [|x l Hc1 Hc2]; subst.
    destruct (IH Hfs Hc2) as (bs' & He' & Hd').
    destruct (poll_logical smax rmax hls f H42 Hmax Hr Hf Hc1) as (b1 & He1 & H9 & Hfull & Hpre).
    exists (b1 ++ bs'). cbn [encode_all]. rewrite He1, He'. split; [reflexivity|].
    intros st w tail Hcl Hb E.
    rewrite (drain_poll hp_raw st).
    destruct (DataPathProofs.app_split _ _ _ _ E) as [(l & A1 & A2)|(l & A0 & A1 & A2)].
    + destruct (Hfull st l Hcl ltac:(rewrite Hb; exact A1)) as (hs' & Hp). rewrite Hp.
      destruct (Hd' (set_core st l LdHead None hs' false) l tail (rclean_set_core _ _ _ _ _ Hcl) eq_refl (eq_sym A2))
        as (fs1 & fs2 & S1 & S2 & S3).
      destruct (drain hp_raw (set_core st l LdHead None hs' false)) as [s2 evs]. cbn [snd] in *.
      exists (f :: fs1), fs2. split; [cbn [app]; congruence|]. split; [|exact S3].
      cbn [map]. rewrite raw_event_frame_raw_event, S2. reflexivity.
    + assert (Hsp : strict_prefix (r_buf st) b1) by (exists l; split; [exact A0|rewrite Hb; symmetry; exact A1]).
      pose proof (Hpre st Hcl Hsp) as Hn.
      destruct (poll hp_raw st) as [st' o]. cbn [snd] in Hn. subst o.
      exists [], (f :: fs). split; [reflexivity|]. split; [reflexivity|].
      intros ->. symmetry in A2. apply app_eq_nil in A2. destruct A2 as [-> _]. congruence.
Qed.

Lemma feed_all_single {HS} (ops : hpack_ops HS) (st : rstate HS) bs :
  snd (feed_all ops st [bs]) = snd (feed ops st bs).
Proof. cbn [feed_all]. destruct (feed ops st bs) as [s1 e1]. cbn [snd]. apply app_nil_r. Qed.

(* the prefix form on the reference side.  A stream that ends inside a frame or inside a CONTINUATION run
   ([w2]) is "need more": rfc_decode_stream answers None for it, see rfc_frames / rfc_reassemble *)
Theorem frames_stream_prefix : forall max fs,
  42 <= max -> max <= MAX_MAX_FRAME_SIZE -> frames_wf max fs = true ->
  exists bs, encode_all max fs = EOk bs /\
    forall w tail, w ++ tail = bs ->
      exists fs1 fs2 w1 w2,
        fs = fs1 ++ fs2 /\ w = w1 ++ w2 /\ encode_all max fs1 = EOk w1 /\
        rfc_decode_stream max w1 = Some (map wire_value_of fs1) /\
        (w2 = [] \/ exists f fs2' b, fs2 = f :: fs2' /\ encode max f = EOk b /\ strict_prefix w2 b).
Proof.
  intros max fs H42 Hmax. induction fs as [|f fs IH]; intros Hwf.
  - exists []. split; [reflexivity|]. intros w tail E. apply app_eq_nil in E. destruct E as [-> _].
    exists [], [], [], []. repeat split; auto.
  - cbn [frames_wf forallb] in Hwf. apply andb_true_iff in Hwf. destruct Hwf as [Hf Hfs].
    destruct (IH Hfs) as (bs & He & Hp).
    destruct (C12_roundtrip_stream max f H42 Hmax Hf) as (b1 & He1 & Hd1).
    exists (b1 ++ bs). cbn [encode_all]. rewrite He1, He. split; [reflexivity|].
    intros w tail E.
    destruct (DataPathProofs.app_split _ _ _ _ E) as [(l & A1 & A2)|(l & A0 & A1 & A2)].
    + destruct (Hp l tail (eq_sym A2)) as (fs1 & fs2 & w1 & w2 & S1 & S2 & S3 & S4 & S5).
      exists (f :: fs1), fs2, (b1 ++ w1), w2.
      split; [cbn [app]; congruence|]. split; [rewrite <- app_assoc; congruence|].
      split; [cbn [encode_all]; rewrite He1, S3; reflexivity|]. split; [|exact S5].
      cbn [map]. change (wire_value_of f :: map wire_value_of fs1) with ([wire_value_of f] ++ map wire_value_of fs1).
      apply rfc_decode_stream_app; assumption.
    + exists [], (f :: fs), [], w. split; [reflexivity|]. split; [reflexivity|]. split; [reflexivity|].
      split; [reflexivity|]. right. exists f, fs, b1. split; [reflexivity|]. split; [exact He1|].
      exists l. split; [exact A0|symmetry; exact A1].
Qed.

(* non-vacuity: under a sender limit of 64 octets a 200-octet block makes HEADERS + three CONTINUATION
   frames; with a DATA frame, a PUSH_PROMISE needing one CONTINUATION and an RST_STREAM behind it, the
   eight physical frames decode -- reference and model reader fed 7-octet reads -- to the four values *)
Example frames_seq_nonvacuous :
  let fs := [FHeaders 1 (headers_END_HEADERS + headers_END_STREAM) None (repeat 65 200);
             FData 3 0 None [1; 2; 3];
             FPushPromise 1 headers_END_HEADERS 2 (repeat 66 70);
             FReset 3 8] in
  frames_wf 64 fs = true /\ Forall (cont_ok 64 16384 16777216) fs /\
  match encode_all 64 fs with
  | EOk bs =>
      payload_lengths (S (length bs)) bs = Some [64; 64; 64; 8; 3; 64; 10; 4] /\
      rfc_decode_stream 64 bs = Some (map wire_value_of fs) /\
      map raw_event_frame (snd (feed_all hp_raw (rinit [] 16384 16777216) (cut (repeat 7 60) bs))) = map Some fs /\
      map raw_event_frame (snd (feed_all hp_raw (rinit [] 16384 16777216) [firstn (length bs - 1) bs]))
        = map Some (removelast fs)
  | _ => False
  end.
Proof.
  cbv zeta. split; [vm_compute; reflexivity|]. split.
  - repeat constructor; unfold cont_ok; vm_compute; discriminate.
  - vm_compute. repeat split; reflexivity.
Qed.
