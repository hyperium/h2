(* The association-list store of Model/SendFlow.v: lookup, update and removal by key, and sums over
   the records. *)
From H2V Require Import Base.Tac Model.SendFlow.
Local Open Scope Z_scope.

Fixpoint sum_avail (l : list sstream) : Z :=
  match l with [] => 0 | s :: l' => s_avail s + sum_avail l' end.

Lemma sumz_app a b : sumz (a ++ b) = sumz a + sumz b.
Proof. induction a as [|x a IH]; cbn [app sumz]; lia. Qed.

Lemma sumz_nonneg l : Forall (fun f => 0 <= f) l -> 0 <= sumz l.
Proof. induction 1; cbn [sumz]; lia. Qed.

Lemma sumz_ge x l : Forall (fun f => 0 <= f) l -> In x l -> x <= sumz l.
Proof.
  induction 1 as [|y l Hy Hl IH]; cbn [sumz]; intros HIn; [destruct HIn|].
  destruct HIn as [->|HIn].
  - apply sumz_nonneg in Hl. lia.
  - apply IH in HIn. lia.
Qed.

Lemma sum_avail_map l : sum_avail l = sumz (map s_avail l).
Proof. induction l as [|x l IH]; cbn [sum_avail map sumz]; congruence. Qed.

Lemma sum_avail_nonneg l : Forall (fun s => 0 <= s_avail s) l -> 0 <= sum_avail l.
Proof. intros H. rewrite sum_avail_map. apply sumz_nonneg, Forall_map, H. Qed.

Lemma find_s_id sid l s : find_s sid l = Some s -> s_id s = sid.
Proof.
  induction l as [|x l IH]; cbn [find_s]; [discriminate|].
  destruct (N.eqb (s_id x) sid) eqn:E; [|exact IH].
  intros [= <-]. now apply N.eqb_eq.
Qed.

Lemma find_s_In sid l s : find_s sid l = Some s -> In s l.
Proof.
  induction l as [|x l IH]; cbn [find_s]; [discriminate|].
  destruct (N.eqb (s_id x) sid); [intros [= <-]; now left|intros H; right; auto].
Qed.

Lemma find_s_none_notin sid l : find_s sid l = None -> ~ In sid (map s_id l).
Proof.
  induction l as [|x l IH]; cbn [find_s map]; [intros _ []|].
  destruct (N.eqb (s_id x) sid) eqn:E; [discriminate|].
  intros H [H1|H1]; [apply N.eqb_neq in E; auto | apply IH; auto].
Qed.

Lemma find_s_complete l s : NoDup (map s_id l) -> In s l -> find_s (s_id s) l = Some s.
Proof.
  induction l as [|x l IH]; cbn [find_s map]; [intros _ []|].
  intros ND [->|HIn]; [now rewrite N.eqb_refl|].
  apply NoDup_cons_iff in ND. destruct ND as (Hn & ND).
  destruct (N.eqb_spec (s_id x) (s_id s)) as [E|_]; [|auto].
  destruct Hn. rewrite E. now apply in_map.
Qed.

Lemma Forall_find (P : sstream -> Prop) sid l s :
  Forall P l -> find_s sid l = Some s -> P s.
Proof.
  intros H F. apply find_s_In in F. rewrite Forall_forall in H. auto.
Qed.

Lemma find_marked t k : forall l s', find_s k (mark_untouched t l) = Some s' ->
  exists s, find_s k l = Some s /\ s' = if mem_touched k t then s else set_dead s.
Proof.
  unfold mark_untouched. induction l as [|x l IH]; cbn [map find_s]; intros s' F; [discriminate|].
  replace (s_id (if mem_touched (s_id x) t then x else set_dead x)) with (s_id x) in F
    by (destruct (mem_touched (s_id x) t); reflexivity).
  destruct (N.eqb_spec (s_id x) k) as [<-|_]; [|auto].
  injection F as <-. exists x. split; reflexivity.
Qed.

Lemma upd_ids s l : map s_id (upd_s s l) = map s_id l.
Proof.
  induction l as [|x l IH]; cbn [upd_s map]; [reflexivity|].
  destruct (N.eqb_spec (s_id x) (s_id s)) as [E|_]; cbn [map]; congruence.
Qed.

Lemma Forall_upd (P : sstream -> Prop) s' l :
  Forall P l -> P s' -> Forall P (upd_s s' l).
Proof.
  induction 1 as [|x l Hx Hl IH]; cbn [upd_s]; intros Hs; [constructor|].
  destruct (N.eqb (s_id x) (s_id s')); constructor; auto.
Qed.

Lemma find_upd_same s' l s :
  find_s (s_id s') l = Some s -> find_s (s_id s') (upd_s s' l) = Some s'.
Proof.
  induction l as [|x l IH]; cbn [find_s upd_s]; [discriminate|].
  destruct (N.eqb (s_id x) (s_id s')) eqn:E; cbn [find_s].
  - now rewrite N.eqb_refl.
  - now rewrite E.
Qed.

Lemma find_upd_other sid s' l :
  sid <> s_id s' -> find_s sid (upd_s s' l) = find_s sid l.
Proof.
  intros Hne. induction l as [|x l IH]; cbn [find_s upd_s]; [reflexivity|].
  destruct (N.eqb_spec (s_id x) (s_id s')) as [E|_]; cbn [find_s].
  - rewrite E. destruct (N.eqb_spec (s_id s') sid); [congruence|reflexivity].
  - destruct (N.eqb (s_id x) sid); auto.
Qed.

Lemma find_upd_inv k s' l x : find_s k (upd_s s' l) = Some x -> x = s' \/ find_s k l = Some x.
Proof.
  induction l as [|y l IH]; cbn [upd_s find_s]; [discriminate|].
  destruct (N.eqb (s_id y) (s_id s')) eqn:E; cbn [find_s].
  - apply N.eqb_eq in E. rewrite E. destruct (N.eqb (s_id s') k); [|auto]. intros H; inversion H. auto.
  - destruct (N.eqb (s_id y) k); auto.
Qed.

Lemma upd_upd a b l : s_id a = s_id b -> upd_s b (upd_s a l) = upd_s b l.
Proof.
  intros Hab. induction l as [|x l IH]; cbn [upd_s]; [reflexivity|]. rewrite <- Hab.
  destruct (N.eqb (s_id x) (s_id a)) eqn:E; cbn [upd_s]; rewrite <- Hab.
  - now rewrite N.eqb_refl.
  - now rewrite E, IH.
Qed.

Lemma sumz_map_upd (f : sstream -> Z) s s' l :
  find_s (s_id s') l = Some s -> sumz (map f (upd_s s' l)) = sumz (map f l) - f s + f s'.
Proof.
  induction l as [|x l IH]; cbn [find_s upd_s map sumz]; [discriminate|].
  destruct (N.eqb (s_id x) (s_id s')).
  - intros [= ->]. cbn [map sumz]. lia.
  - intros H. cbn [map sumz]. rewrite (IH H). lia.
Qed.

Lemma sumz_map_del (f : sstream -> Z) sid l s :
  find_s sid l = Some s -> sumz (map f (del_s sid l)) = sumz (map f l) - f s.
Proof.
  induction l as [|x l IH]; cbn [find_s del_s map sumz]; [discriminate|].
  destruct (N.eqb (s_id x) sid).
  - intros [= ->]. lia.
  - intros H. cbn [map sumz]. rewrite (IH H). lia.
Qed.

Lemma del_In sid l x : In x (del_s sid l) -> In x l.
Proof.
  induction l as [|y l IH]; cbn [del_s]; [auto|].
  destruct (N.eqb (s_id y) sid); [now right|].
  intros [H|H]; [now left|right; auto].
Qed.

Lemma Forall_del (P : sstream -> Prop) sid l : Forall P l -> Forall P (del_s sid l).
Proof. rewrite !Forall_forall. intros H x Hx. apply H, (del_In sid), Hx. Qed.

Lemma del_ids_NoDup sid l : NoDup (map s_id l) -> NoDup (map s_id (del_s sid l)).
Proof.
  induction l as [|x l IH]; cbn [del_s map]; intros ND; [constructor|].
  apply NoDup_cons_iff in ND. destruct ND as (Hn & ND).
  destruct (N.eqb (s_id x) sid); [assumption|].
  cbn [map]. constructor; [|auto].
  intros HIn. apply Hn. apply in_map_iff in HIn. destruct HIn as (y & <- & Hy).
  apply in_map, (del_In sid), Hy.
Qed.
