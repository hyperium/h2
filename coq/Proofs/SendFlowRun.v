(* Run-level theorems of the send-flow model: C02 (ledger) and C16 (capacity API). *)
From H2V Require Import Base.Tac Model.SendFlow Ref.Accountant
     Proofs.SendFlowLists Proofs.SendFlowInv Proofs.SendFlowView Proofs.SendFlowLedger.
Local Open Scope Z_scope.

Fixpoint all_wevs (ls : list label) (outs : list (list out)) : list wev :=
  match ls, outs with
  | l :: ls', o :: outs' => wevs l o ++ all_wevs ls' outs'
  | _, _ => []
  end.

Definition no_conn_err (outs : list (list out)) : bool := negb (existsb has_conn_err outs).

Lemma acct_run_app a es1 es2 :
  acct_run a (es1 ++ es2) = match acct_run a es1 with Some a' => acct_run a' es2 | None => None end.
Proof.
  revert a. induction es1 as [|e es1 IH]; intros a; cbn [app acct_run]; [reflexivity|].
  destruct (acct_step a e); auto.
Qed.

Lemma init_inv mb init : 0 <= mb -> 0 <= init <= MAXW -> Inv (init_state mb init).
Proof.
  intros Hm Hi. unfold Inv, InvD, init_state, DEFAULT_WIN, MAXW in *. cbn [c_win c_avail c_maxbuf c_init c_strs sum_avail map].
  repeat split; try lia; constructor.
Qed.

Lemma init_R mb init : R (init_state mb init) (acct0 init).
Proof.
  unfold R, init_state, acct0, DEFAULT_WIN. cbn [c_win c_init c_strs a_credit a_sent a_init map].
  repeat split; try lia. constructor.
Qed.

(* no label of any run panics; the debt (capacity lost to a failed SETTINGS decrease) is >= 0 and
   stays 0 as long as no connection error was reported *)
Theorem run_safe ls : forall st d,
  0 <= d -> InvD d st -> Forall label_ok ls ->
  match run st ls with
  | inl (Some (st', outs)) =>
      (exists d', d <= d' /\ InvD d' st') /\ (no_conn_err outs = true -> InvD d st')
  | inl None => True
  | inr (_, Panic _) => False
  | inr (_, _) => True
  end.
Proof.
  induction ls as [|l ls IH]; intros st d Hd HI Hls; cbn [run].
  - split; [exists d; split; [lia|exact HI]|auto].
  - inversion Hls as [|? ? Hl Hls']; subst.
    pose proof (step_inv d st l Hd HI Hl) as X.
    destruct (step st l) as [st1 o1|n|n]; cbn [step_result_ok] in X; auto.
    destruct X as ((d1 & Hd1 & HI1) & Hno).
    destruct (has_conn_err o1) eqn:Ec.
    + specialize (IH st1 d1 ltac:(lia) HI1 Hls').
      destruct (run st1 ls) as [[[st2 os]|]|[k r]]; [|exact I|destruct r; exact IH].
      destruct IH as ((d2 & Hd2 & HI2) & _). split; [exists d2; split; [lia|exact HI2]|].
      unfold no_conn_err. cbn [existsb]. rewrite Ec. cbn [orb negb]. discriminate.
    + specialize (IH st1 d Hd (Hno eq_refl) Hls').
      destruct (run st1 ls) as [[[st2 os]|]|[k r]]; [|exact I|destruct r; exact IH].
      destruct IH as (A & B). split; [exact A|].
      unfold no_conn_err in *. cbn [existsb]. rewrite Ec. cbn [orb]. exact B.
Qed.

Theorem run_ledger ls : forall st a d st' outs,
  0 <= d -> InvD d st -> R st a -> Forall label_ok ls ->
  run st ls = inl (Some (st', outs)) -> no_conn_err outs = true ->
  exists a', acct_run a (all_wevs ls outs) = Some a' /\ R st' a' /\ InvD d st'.
Proof.
  induction ls as [|l ls IH]; intros st a d st' outs Hd HI HR Hls Hrun Hno; cbn [run] in Hrun.
  - inversion Hrun; subst. exists a. cbn [all_wevs acct_run]. auto.
  - inversion Hls as [|? ? Hl Hls']; subst.
    destruct (step st l) as [st1 o1|n|n] eqn:Es; try discriminate.
    destruct (run st1 ls) as [[[st2 os]|]|[k r]] eqn:Er; try discriminate.
    inversion Hrun; subst st' outs.
    unfold no_conn_err in Hno. cbn [existsb] in Hno. apply negb_true_iff, orb_false_iff in Hno.
    destruct Hno as (Hn1 & Hn2).
    pose proof (step_inv d st l Hd HI Hl) as X. rewrite Es in X. cbn [step_result_ok] in X.
    destruct X as (_ & HI1). specialize (HI1 Hn1).
    destruct (step_sim d st a l st1 o1 Hd HI HR Hl Es Hn1) as (a1 & A1 & R1).
    destruct (IH st1 a1 d st2 os Hd HI1 R1 Hls' Er ltac:(unfold no_conn_err; rewrite Hn2; reflexivity))
      as (a2 & A2 & R2 & I2).
    exists a2. cbn [all_wevs]. rewrite acct_run_app, A1. auto.
Qed.

(* C02: the DATA the model emits is always within the credit the peer has granted, for every label
   sequence (every history of sends, reservations, resets, window updates, settings changes, every
   scheduling order of assign_connection_capacity, every stream-state history). *)
Theorem C02_never_exceeds_credit mb init ls st outs :
  0 <= mb -> 0 <= init <= MAXW -> Forall label_ok ls ->
  run (init_state mb init) ls = inl (Some (st, outs)) -> no_conn_err outs = true ->
  exists a, acct_run (acct0 init) (all_wevs ls outs) = Some a.
Proof.
  intros Hm Hi Hls Hrun Hno.
  destruct (run_ledger ls _ (acct0 init) 0 st outs ltac:(lia) (init_inv mb init Hm Hi) (init_R mb init) Hls Hrun Hno)
    as (a & A & _). exists a. exact A.
Qed.

(* C16: what the capacity API reports is backed by real credit.  For every reachable state:
   - the capacity reported for a record is at most what is assigned to it;
   - what is assigned to a record that can still send is within the stream's remaining wire credit;
   - the total assigned over all records is within the connection's remaining wire credit;
   and, as long as no connection error occurred, nothing is lost: assigned + unassigned = window. *)
Theorem C16_capacity_is_backed mb init ls st outs :
  0 <= mb -> 0 <= init <= MAXW -> Forall label_ok ls ->
  run (init_state mb init) ls = inl (Some (st, outs)) -> no_conn_err outs = true ->
  exists a, acct_run (acct0 init) (all_wevs ls outs) = Some a /\
    sum_avail (c_strs st) <= a_credit a - a_sent a /\
    sum_avail (c_strs st) + c_avail st = c_win st /\
    forall s, In s (c_strs st) ->
      0 <= capacity (c_maxbuf st) s <= s_avail s /\
      (s_dead s = false ->
         exists c sn, a_find (s_id s) (a_streams a) = Some (c, sn) /\ s_avail s <= Z.max 0 (c - sn)).
Proof.
  intros Hm Hi Hls Hrun Hno.
  destruct (run_ledger ls _ (acct0 init) 0 st outs ltac:(lia) (init_inv mb init Hm Hi) (init_R mb init) Hls Hrun Hno)
    as (a & A & (R1 & R2 & R3) & (H1 & H2 & H3 & H4 & H5 & H6 & H7 & H8)).
  exists a. split; [exact A|]. split; [lia|]. split; [lia|].
  intros s Hin. rewrite Forall_forall in H7. destruct (H7 s Hin) as (K1 & K2 & K3 & K4 & K5 & K6 & K7 & K8).
  split.
  - unfold capacity. rewrite (as_size_nonneg _ K1). pose proof (sumz_nonneg _ K5). lia.
  - intros Hd. rewrite Forall_forall in R3.
    destruct (R3 (sproj s) (in_map sproj _ _ Hin) Hd) as (c & sn & X & Y). cbn [sproj fst snd] in X, Y.
    exists c, sn. split; [exact X|]. unfold as_size in K2. lia.
Qed.

(* poll_capacity with no capacity to report parks the task and answers Pending (ORes (-1)), never
   Ready(Some(Ok(0))) *)
Theorem C16_poll_capacity_never_zero st sid o st' outs :
  step st (LPollCapacity sid o) = Ok st' outs -> ~ In (ORes 0) outs.
Proof.
  cbn [step]. destruct (find_s sid (c_strs st)) as [s|]; [|discriminate].
  destruct (negb (o_streaming o)); [intros [= _ <-] [X|[]]; discriminate|].
  destruct (negb (s_capinc s)); [intros [= _ <-] [X|[]]; discriminate|].
  destruct (capacity (c_maxbuf st) (set_capinc s false) =? 0) eqn:E; intros [= _ <-] [X|[]]; [discriminate|].
  injection X as X. rewrite X in E. discriminate.
Qed.

(* a window-limited transfer, a SETTINGS decrease that makes the window negative, a grant and a
   stream error that clears the queue (handle_error): the history runs to completion and is accepted
   by the accountant *)
Definition demo_obs := mkObs true false false false.
Definition demo_labels : list label :=
  [ LNew 1 100; LSendData 1 demo_obs 250 false []; LPopData 1 250 16384;
    LApplySettings 40 [(1%N, demo_obs)] []; LRecvStreamWU 1 demo_obs 200; LPopData 1 150 16384;
    LRecvConnWU 1000 []; LPollCapacity 1 demo_obs; LHandleError 1 [] ].

Example demo_runs :
  match run (init_state 409600 100) demo_labels with
  | inl (Some (st, outs)) =>
      no_conn_err outs = true /\ concat outs <> [] /\
      acct_run (acct0 100) (all_wevs demo_labels outs) <> None
  | _ => False
  end.
Proof. vm_compute. repeat split; discriminate. Qed.

Example demo_labels_ok : Forall label_ok demo_labels.
Proof. unfold demo_labels. repeat (constructor; [cbn [label_ok]; unfold MAXW; try lia; exact I|]). constructor. Qed.
