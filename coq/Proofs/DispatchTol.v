(* C09 at the dispatch layer, tolerance: every frame RFC 9113 permits in the stream's state is taken without a
   connection error and without a stream error that accuses the peer. *)
From H2V Require Import Base.Tac Base.Bytes Model.StreamState Ref.Rfc9113Stream Proofs.StreamStateProofs
  Model.Dispatch Proofs.DispatchRecv.
Local Open Scope N_scope.

Lemma recv_open_id_fresh st id push can n :
  c_recv_next st = Some n -> n <=? id = true ->
  (if is_server (c_role st) then push || negb (is_client_init id) else negb push || negb (is_server_init id)) = false ->
  recv_open_id st id push can =
  match c_refused st with
  | Some _ => OpStuck
  | None => if can then OpOpened (with_recv_next st (next_id id))
            else OpRefused (with_refused (with_recv_next st (next_id id)) (Some id))
  end.
Proof.
  intros Hn Hle Hp. unfold recv_open_id. rewrite Hp, Hn.
  apply N.leb_le, N.ltb_ge in Hle. rewrite Hle. reflexivity.
Qed.

Lemma recv_close_streaming s : is_recv_streaming s = true -> snd (recv_close s) = RUnit.
Proof. d_state s; try discriminate; reflexivity. Qed.

(* what the tests of the step functions come to where the RFC's verdict lets the frame pass *)
Lemma tolerated_tests ro sid r t :
  wf_shape ro sid r = true ->
  tolerable (receiver_must_for (is_local_init ro sid) (fst (pview ro r)) (snd (pview ro r)) t) = true ->
  let s := s_state r in
  match t with
  | HEADERS => s_popen r = false /\
               (is_local_error s = false -> is_recv_headers s = false -> recv_phase s = body /\ is_recv_streaming s = true)
  | DATA => is_local_error s = false -> recv_phase s = awaiting \/ is_recv_streaming s = true
  | PUSH_PROMISE => s_popen r = false /\ (is_local_error s = false -> ensure_recv_open s = RBool true)
  | RST_STREAM | WINDOW_UPDATE => s_popen r && negb (is_server ro) = false
  | PRIORITY => True
  end.
Proof.
  destruct r as [i s po pu rx q fl]. unfold wf_shape, pview. cbn [s_state s_popen s_ppush].
  (* the two flags, the role, the parity and the state decide every term of the statement; wf_shape is false for the
     shapes that do not occur *)
  destruct pu, po, (is_server ro), (is_local_init ro sid); d_state s; cbn; try discriminate;
    try (destruct (error_is_local e); cbn); intros _.
  (* then by frame type: the verdict is not tolerable, or the tests evaluate as stated *)
  all: destruct t; cbn; try discriminate; intuition discriminate.
Qed.

Lemma recv_headers_on_fine nk st sid eos info o k r ins st' outs :
  s_popen r = false ->
  (is_local_error (s_state r) = false -> is_recv_headers (s_state r) = false ->
   eos = true /\ is_recv_streaming (s_state r) = true) ->
  obs_fine (LRecvHeaders sid eos info o nk) = true ->
  recv_headers_on st sid eos info o k r ins = Ok st' outs -> penalised outs = false.
Proof.
  intros Hp Hst Ho. apply andb_true_iff in Ho as [Ho Hq]. apply andb_true_iff in Ho as [Hie Hv].
  apply negb_true_iff in Hie.
  unfold recv_headers_on. rewrite Hp.
  destruct (is_local_error (s_state r)); [intros H; apply res1_inv in H as [-> ->]; destruct ins; reflexivity|].
  destruct (is_recv_headers (s_state r)) eqn:Eh.
  - unfold recv_headers_core. rewrite Hie.
    destruct (recv_open_verdict eos info (s_state r)) as [[_ (s1 & b & E)]|[E _]]; [|congruence]. rewrite E.
    destruct (h_verdict o); try discriminate.
    destruct (b && negb (h_can_count o)) eqn:Ec.
    + (* refused for the concurrency limit: the reset quota is there *)
      assert (Hq' : h_quota o = true) by (destruct (h_can_count o); [rewrite andb_false_r in Ec; discriminate|exact Hq]).
      rewrite reset_on_err_eq. unfold lib_reset. rewrite Hq'.
      intros H; apply res1_inv in H as [-> ->]. destruct (is_reset _ || _), ins; reflexivity.
    + cbn [reset_on_recv_stream_err]. intros H; apply res1_inv in H as [-> ->]. destruct ins, info; reflexivity.
  - destruct (Hst eq_refl eq_refl) as [-> Hrs]. cbn [negb]. unfold recv_trailers_core.
    destruct (h_verdict o); try discriminate.
    pose proof (recv_close_streaming _ Hrs) as Hc.
    destruct (recv_close (s_state r)) as [s1 x]. cbn [snd] in Hc. subst x.
    cbn [reset_on_recv_stream_err]. intros H; apply res1_inv in H as [-> ->]. destruct ins; reflexivity.
Qed.

Theorem recv_tolerated st l sid t k r st' outs :
  recv_frame l = Some (sid, t) -> iget st sid = Some (k, r) -> (sid =? 0) = false ->
  wf_shape (c_role st) sid r = true ->
  tolerable (receiver_must_for (is_local_init (c_role st) sid) (fst (pview (c_role st) r)) (snd (pview (c_role st) r)) t) = true ->
  obs_fine l = true -> msg_fine l (s_state r) = true -> conn_fine st l = true ->
  step st l = Ok st' outs ->
  penalised outs = false.
Proof.
  intros Hl Hi Hz Hwf Hv Ho Hm Hc Hs. pose proof (tolerated_tests _ _ _ _ Hwf Hv) as Ht.
  destruct l; try discriminate Hl; inversion Hl; subst; cbn [step obs_fine msg_fine conn_fine] in *.
  - unfold step_recv_headers in Hs. rewrite Hz, Hi in Hs. destruct Ht as [Hp Hst].
    destruct (c_recv_max st <? sid); [apply res1_inv in Hs as [-> ->]; reflexivity|].
    eapply (recv_headers_on_fine nk); [exact Hp| |exact Ho|exact Hs].
    intros H1 H2. destruct (Hst H1 H2) as [Hph Hrs]. rewrite Hph in Hm. auto.
  - unfold step_recv_data in Hs. rewrite Hz, Hi in Hs.
    apply andb_true_iff in Ho as [Hd Hb]. unfold recv_data_core, ignore_data in Hs. rewrite Hb in Hs.
    destruct (d_verdict o); try discriminate Hd.
    destruct (is_local_error (s_state r)); cbn [negb andb] in Hs.
    + rewrite andb_false_r in Hs. cbn [reset_on_recv_stream_err] in Hs. apply res1_inv in Hs as [-> ->]. reflexivity.
    + destruct (Ht eq_refl) as [Hph|Hrs]; [rewrite Hph in Hm; discriminate|].
      rewrite Hrs, !andb_false_r in Hs. cbn [negb] in Hs.
      assert (Hcl : snd (if eos then recv_close (s_state r) else (s_state r, RUnit)) = RUnit).
      { destruct eos; [exact (recv_close_streaming _ Hrs)|reflexivity]. }
      destruct (if eos then recv_close (s_state r) else (s_state r, RUnit)) as [s1 x]. cbn [snd] in Hcl. subst x.
      destruct (negb (d_is_recv o)); [|destruct (d_empty o && negb eos)];
        cbn [reset_on_recv_stream_err] in Hs; apply res1_inv in Hs as [-> ->]; destruct eos; reflexivity.
  - unfold step_recv_reset in Hs. rewrite Hz, Hi, Ht, Ho in Hs. cbn [negb clear_queue] in Hs.
    destruct (_ && _); apply res1_inv in Hs as [-> ->]; reflexivity.
  - apply negb_true_iff in Ho. unfold step_recv_window_update in Hs. rewrite Hz, Hi, Ht, Ho in Hs.
    apply res1_inv in Hs as [-> ->]; reflexivity.
  - destruct Ht as [Hp Hst].
    rewrite !andb_true_iff, negb_true_iff in Hc. destruct Hc as ((((Hcl & Hpush) & Hpar) & Hn) & Hloc).
    destruct (c_recv_next st) as [n|] eqn:En; [|discriminate].
    unfold step_recv_push_promise in Hs.
    rewrite Hz, Hi, Hloc, Hp, Hpush, (recv_open_id_fresh st promised true (p_can_open o) n En Hn) in Hs
      by (rewrite Hcl, Hpar; reflexivity).
    cbn [negb orb] in Hs.
    destruct (c_recv_max st <? sid); [apply res1_inv in Hs as [-> ->]; reflexivity|].
    destruct (c_refused st); [destruct (is_local_error _); [|rewrite Hst in Hs by reflexivity]; discriminate|].
    destruct (is_local_error (s_state r)); [destruct (p_can_open o); apply res1_inv in Hs as [-> ->]; reflexivity|].
    rewrite (Hst eq_refl) in Hs. destruct (p_can_open o); [|apply res1_inv in Hs as [-> ->]; reflexivity].
    destruct (kget _ nk); [discriminate|]. cbn [new_rec s_state reserve_remote] in Hs.
    rewrite Ho in Hs. apply res1_inv in Hs as [-> ->]. reflexivity.
  - apply res1_inv in Hs as [-> ->]. reflexivity.
Qed.

(* frames on an identifier the store does not know (closed and forgotten, or never used) *)
Theorem recv_unknown_tolerated st l sid t st' outs :
  recv_frame l = Some (sid, t) -> iget st sid = None -> (sid =? 0) = false ->
  (t = WINDOW_UPDATE \/ t = RST_STREAM \/ t = PRIORITY) -> not_idle st sid = true \/ t = PRIORITY ->
  obs_fine l = true ->
  step st l = Ok st' outs ->
  penalised outs = false /\ st' = st /\ has_app outs = false.
Proof.
  intros Hl Hi Hz Ht Hn Ho Hs.
  destruct l; try discriminate Hl; inversion Hl; subst; cbn [step] in Hs;
    try (destruct Ht as [Ht|[Ht|Ht]]; discriminate).
  - destruct Hn as [Hn|Hn]; [|discriminate]. unfold step_recv_reset in Hs. rewrite Hz, Hi, Hn in Hs.
    destruct (_ && _); apply res1_inv in Hs as [-> ->]; auto.
  - destruct Hn as [Hn|Hn]; [|discriminate]. unfold step_recv_window_update in Hs. rewrite Hz, Hi, Hn in Hs.
    apply res1_inv in Hs as [-> ->]; auto.
  - apply res1_inv in Hs as [-> ->]; auto.
Qed.

(* a new stream of the peer: HEADERS on a fresh identifier of the right parity *)
Theorem recv_new_stream_tolerated st sid eos info o nk st' outs :
  iget st sid = None -> is_server (c_role st) = true -> is_client_init sid = true ->
  (match c_recv_next st with Some n => n <=? sid | None => false end) = true ->
  obs_fine (LRecvHeaders sid eos info o nk) = true ->
  step st (LRecvHeaders sid eos info o nk) = Ok st' outs ->
  penalised outs = false.
Proof.
  intros Hi Er Hc Hn Ho Hs. cbn [step obs_fine] in *.
  destruct (c_recv_next st) as [n|] eqn:En; [|discriminate].
  assert (Hf : may_have_forgotten st sid = false).
  { pose proof (one_parity sid) as Hp. rewrite Hc in Hp. cbn [andb] in Hp.
    unfold may_have_forgotten, is_local_init. rewrite Er, Hp, En.
    destruct (sid =? 0); [reflexivity|]. apply N.leb_le, N.ltb_ge in Hn. exact Hn. }
  unfold step_recv_headers in Hs.
  rewrite Hi, Hf, andb_false_r, (recv_open_id_fresh st sid false (h_can_open o) n En Hn) in Hs
    by (rewrite Er, Hc; reflexivity).
  destruct (sid =? 0); [discriminate|]. destruct (c_recv_max st <? sid); [apply res1_inv in Hs as [-> ->]; reflexivity|].
  destruct (c_refused st); [discriminate|]. destruct (h_can_open o); [|apply res1_inv in Hs as [-> ->]; reflexivity].
  destruct (kget _ nk); [discriminate|].
  eapply (recv_headers_on_fine nk); [| |exact Ho|exact Hs]; [reflexivity|discriminate].
Qed.
