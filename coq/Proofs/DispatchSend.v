(* C04 at the dispatch layer: what the API calls put on a stream's queue, what leaves the queue, the identifiers.
   One step from ANY state, for all observed inputs. *)
From H2V Require Import Base.Tac Base.Bytes Model.StreamState Ref.Rfc9113Stream Proofs.StreamStateProofs
  Model.Dispatch Proofs.DispatchRecv Proofs.DispatchReset.
Local Open Scope N_scope.

Fixpoint outs_emitted_frames (o : list out) : list wframe :=
  match o with
  | [] => []
  | OEmit f :: o' => f :: outs_emitted_frames o'
  | _ :: o' => outs_emitted_frames o'
  end.

(* send_request: refused without a trace when the identifiers have run out, for a server, after a connection error;
   else the stream gets the next identifier, its HEADERS are queued behind the concurrency gate (pending_open), and
   next_stream_id moves on - to the overflow marker beyond 2^31-1, never around *)
Theorem send_request_opens st eos rejected hdr_ok nk st' outs :
  ids_wf st = true ->
  step st (LSendRequest eos rejected hdr_ok nk) = Ok st' outs ->
  match result_of outs with
  | ROk =>
    exists id, c_send_next st = Some id /\ c_send_next st' = next_id id /\ is_server (c_role st) = false /\
               c_conn_error st = None /\
               queued_all outs = [(id, QHeaders eos false)] /\
               kget st' nk = Some (mkS id (fst (send_open eos Idle)) true false false [QHeaders eos false] None) /\
               snd (send_open eos Idle) = RUnit /\
               (forall k, k <> nk -> kget st' k = kget st k)
  | _ => queued_all outs = [] /\ c_slab st' = c_slab st /\ c_ids st' = c_ids st /\
         (c_send_next st = None -> st' = st /\ result_of outs = RUser UOverflowedStreamId \/ c_conn_error st <> None)
  end.
Proof.
  intros Hw. cbn [step]. unfold step_send_request, send_headers_core, queue_frame, res1. intros Hs.
  unfold ids_wf in Hw.
  destruct (c_conn_error st) eqn:Ee.
  { inversion Hs; subst. cbn. repeat split; auto. intros _. right. discriminate. }
  destruct (c_send_next st) as [id|] eqn:En.
  2:{ inversion Hs; subst. cbn. repeat split; auto. }
  destruct rejected; [inversion Hs; subst; cbn; repeat split; auto; discriminate|].
  destruct (is_server (c_role st)) eqn:Er; [inversion Hs; subst; cbn; repeat split; auto; discriminate|].
  destruct hdr_ok; cbn [negb] in Hs; [|inversion Hs; subst; cbn; repeat split; auto; discriminate].
  destruct (kget _ nk) eqn:Ek; [discriminate|].
  rewrite Hw in Hs.
  destruct eos; cbn in Hs; inversion Hs; subst; clear Hs; cbn.
  all: exists id; repeat split; auto; [apply kget_insert_same|intros; apply kget_insert_other; auto].
Qed.

(* send_response / send_pushed_response, send_data, send_trailers, send_informational: a frame is queued only where
   the state machine permits it, at the end of that stream's queue, other records untouched *)
Theorem send_response_queues st k eos hdr_ok st' outs r :
  kget st k = Some r -> step st (LSendResponse k eos hdr_ok) = Ok st' outs ->
  (forall k', k' <> k -> kget st' k' = kget st k') /\ has_emit outs = false /\
  match result_of outs with
  | ROk => exists s', send_open eos (s_state r) = (s', RUnit) /\ queued_all outs = [(s_id r, QHeaders eos false)] /\
                      exists r', kget st' k = Some r' /\ s_state r' = s' /\ s_q r' = s_q r ++ [QHeaders eos false]
  | _ => queued_all outs = [] /\ st' = st
  end.
Proof.
  intros Hk. cbn [step]. unfold step_send_response, send_headers_core, queue_frame, res1. rewrite Hk. intros Hs.
  destruct hdr_ok; cbn [negb] in Hs; [|inversion Hs; subst; cbn; auto].
  destruct (send_open eos (s_state r)) as [s1 [| | | | |]] eqn:Eo; inversion Hs; subst; clear Hs; cbn; auto.
  split; [intros; apply kget_put_other; auto|]. split; auto.
  eexists; split; [reflexivity|]. split; auto. eexists. split; [apply kget_put_same|].
  cbn [set_state s_ppush]. destruct (is_local_init (c_role st) (s_id r) && negb (s_ppush r)); cbn; auto.
Qed.

Theorem send_data_queues st k eos too_big st' outs r :
  kget st k = Some r -> step st (LSendData k eos too_big) = Ok st' outs ->
  (forall k', k' <> k -> kget st' k' = kget st k') /\ has_emit outs = false /\
  match result_of outs with
  | ROk => is_send_streaming (s_state r) = true /\ queued_all outs = [(s_id r, QData eos)] /\
           exists r', kget st' k = Some r' /\ s_q r' = s_q r ++ [QData eos] /\
                      s_state r' = (if eos then fst (send_close (s_state r)) else s_state r)
  | _ => queued_all outs = [] /\ st' = st
  end.
Proof.
  intros Hk. cbn [step]. unfold step_send_data, queue_frame, res1. rewrite Hk. intros Hs.
  destruct too_big; [inversion Hs; subst; cbn; auto|].
  destruct (is_send_streaming (s_state r)) eqn:Es; cbn [negb] in Hs; [|inversion Hs; subst; cbn; auto].
  destruct eos.
  - destruct (send_close (s_state r)) as [s1 [| | | | |]] eqn:Ec; try discriminate. inversion Hs; subst; clear Hs. cbn.
    split; [intros; apply kget_put_other; auto|]. repeat split; auto. eexists. split; [apply kget_put_same|]. cbn; auto.
  - inversion Hs; subst; clear Hs. cbn.
    split; [intros; apply kget_put_other; auto|]. repeat split; auto. eexists. split; [apply kget_put_same|]. cbn; auto.
Qed.

Theorem send_trailers_queues st k hdr_ok st' outs r :
  kget st k = Some r -> step st (LSendTrailers k hdr_ok) = Ok st' outs ->
  (forall k', k' <> k -> kget st' k' = kget st k') /\ has_emit outs = false /\
  match result_of outs with
  | ROk => is_send_streaming (s_state r) = true /\ queued_all outs = [(s_id r, QTrailers)] /\
           exists r', kget st' k = Some r' /\ s_q r' = s_q r ++ [QTrailers] /\ s_state r' = fst (send_close (s_state r))
  | _ => queued_all outs = [] /\ st' = st
  end.
Proof.
  intros Hk. cbn [step]. unfold step_send_trailers, queue_frame, res1. rewrite Hk. intros Hs.
  destruct hdr_ok; cbn [negb] in Hs; [|inversion Hs; subst; cbn; auto].
  destruct (is_send_streaming (s_state r)) eqn:Es; cbn [negb] in Hs; [|inversion Hs; subst; cbn; auto].
  destruct (send_close (s_state r)) as [s1 [| | | | |]] eqn:Ec; try discriminate. inversion Hs; subst; clear Hs. cbn.
  split; [intros; apply kget_put_other; auto|]. repeat split; auto. eexists. split; [apply kget_put_same|]. cbn; auto.
Qed.

Theorem send_info_queues st k eos hdr_ok st' outs r :
  kget st k = Some r -> step st (LSendInfo k eos hdr_ok) = Ok st' outs ->
  (forall k', k' <> k -> kget st' k' = kget st k') /\ has_emit outs = false /\
  match result_of outs with
  | ROk => is_send_awaiting_headers (s_state r) = true /\ eos = false /\ queued_all outs = [(s_id r, QHeaders false true)] /\
           exists r', kget st' k = Some r' /\ s_q r' = s_q r ++ [QHeaders false true] /\ s_state r' = s_state r
  | _ => queued_all outs = [] /\ st' = st
  end.
Proof.
  intros Hk. cbn [step]. unfold step_send_info, queue_frame, res1. rewrite Hk. intros Hs.
  destruct (is_local_init (c_role st) (s_id r)); [discriminate|].
  destruct eos; [inversion Hs; subst; cbn; auto|].
  destruct hdr_ok; cbn [negb] in Hs; [|inversion Hs; subst; cbn; auto].
  destruct (is_send_awaiting_headers (s_state r)) eqn:Es; cbn [negb] in Hs; [|inversion Hs; subst; cbn; auto].
  inversion Hs; subst; clear Hs. cbn.
  split; [intros; apply kget_put_other; auto|]. repeat split; auto. eexists. split; [apply kget_put_same|]. cbn; auto.
Qed.

(* push_request: only a server, only on a stream of the peer whose send half is not closed (open or half-closed
   (remote) for the peer), only while the peer accepts pushes and below its GOAWAY; the promised stream gets the next
   identifier of ours, is reserved (local) and gated behind its PUSH_PROMISE (pending_push) *)
Theorem push_request_reserves st k convert_ok hdr_ok nk st' outs parent :
  kget st k = Some parent -> step st (LPushRequest k convert_ok hdr_ok nk) = Ok st' outs ->
  has_emit outs = false /\
  match result_of outs with
  | ROk =>
    exists id, c_send_next st = Some id /\ c_send_next st' = next_id id /\ (c_send_max st <? id) = false /\
               is_server (c_role st) = true /\ is_local_init (c_role st) (s_id parent) = false /\
               c_push_remote st = true /\ is_send_closed (s_state parent) = false /\
               queued_all outs = [(s_id parent, QPush id)] /\
               kget st' nk = Some (mkS id ReservedLocal false true false [] None) /\
               (exists p', kget st' k = Some p' /\ s_q p' = s_q parent ++ [QPush id] /\ s_state p' = s_state parent)
  | _ => queued_all outs = []
  end.
Proof.
  intros Hk. cbn [step]. unfold step_push_request, queue_frame, res1. rewrite Hk. intros Hs.
  destruct (is_server (c_role st)) eqn:Er; cbn [negb orb] in Hs; [|discriminate].
  destruct (is_local_init (c_role st) (s_id parent)) eqn:El; [discriminate|].
  destruct (c_send_next st) as [id|] eqn:En; [|inversion Hs; subst; cbn; auto].
  destruct (c_send_max st <? id) eqn:Em; [inversion Hs; subst; cbn; auto|].
  destruct (kget _ nk) eqn:Ek; [discriminate|]. cbn [new_rec s_state reserve_local] in Hs.
  destruct convert_ok; cbn [negb] in Hs; [|inversion Hs; subst; cbn; auto].
  destruct (c_push_remote st) eqn:Ep; cbn [negb] in Hs; [|inversion Hs; subst; cbn; auto].
  destruct (is_send_closed (s_state parent)) eqn:Ec; [inversion Hs; subst; cbn; auto|].
  destruct hdr_ok; cbn [negb] in Hs; [|inversion Hs; subst; cbn; auto].
  inversion Hs; subst; clear Hs. cbn. split; auto.
  exists id. repeat split; auto.
  - destruct (N.eq_dec k nk) as [->|Hne].
    + unfold kget in Ek. cbn in Ek. unfold kget in Hk. congruence.
    + unfold kget. cbn. rewrite sget_sset_other by auto. apply sget_sset_same.
  - eexists. split; [unfold kget; cbn; apply sget_sset_same|]. cbn; auto.
Qed.

(* Prioritize::pop_frame: what it emits is the frame at the front of that stream's queue (a DATA frame possibly in part: then without
   END_STREAM, the remainder stays first in line), or - with an empty queue - the scheduled RST_STREAM; one frame at
   most, on that stream *)
Theorem pop_emits_front st k o st' outs r :
  kget st k = Some r -> step st (LPop k o) = Ok st' outs ->
  match outs_emitted_frames outs with
  | [] => True
  | [WFrame sid f] =>
    sid = s_id r /\
    match s_q r with
    | [] => exists reason, get_scheduled_reset (s_state r) = Some reason /\ f = QReset reason
    | QData eos :: _ => f = QData eos \/ (f = QData false /\ pp_partial o = true)
    | g :: _ => f = g
    end
  | _ => False
  end.
Proof.
  intros Hk. cbn [step]. unfold step_pop, clear_queue. rewrite Hk. intros Hs.
  destruct (s_popen r || s_ppush r); [discriminate|].
  destruct (s_q r) as [|f q'] eqn:Eq.
  - destruct (get_scheduled_reset (s_state r)) eqn:Eg; inversion Hs; subst; cbn; eauto.
  - destruct f.
    + inversion Hs; subst; cbn; auto.
    + inversion Hs; subst; cbn; auto.
    + destruct (get_scheduled_reset (s_state r)) as [reason|];
        [destruct (negb (reason =? NO_ERROR)); [inversion Hs; subst; cbn; auto|]|].
      (* NO_ERROR scheduled, or nothing: the DATA frame is sent *)
      all: destruct (s_infl r); [discriminate|]; destruct (pp_blocked o); [inversion Hs; subst; cbn; auto|].
      all: destruct (pp_partial o) eqn:Ep; inversion Hs; subst; cbn; auto.
    + destruct (iget _ promised) as [[ck c]|]; inversion Hs; subst; cbn; auto.
    + inversion Hs; subst; cbn; auto.
Qed.

(* once the send half is closed (END_STREAM queued or sent, or the stream reset or failed) no API call queues another
   HEADERS or DATA frame on the stream (a PUSH_PROMISE: push_request_reserves) *)
Theorem send_closed_queues_nothing st l k r st' outs :
  kget st k = Some r -> is_send_closed (s_state r) = true ->
  ((exists eos tb, l = LSendData k eos tb) \/ (exists h, l = LSendTrailers k h) \/
   (exists eos h, l = LSendResponse k eos h) \/ (exists eos h, l = LSendInfo k eos h)) ->
  step st l = Ok st' outs -> queued_all outs = [] /\ st' = st.
Proof.
  intros Hk Hc Hl Hs.
  destruct Hl as [(eos & tb & ->)|[(h & ->)|[(eos & h & ->)|(eos & h & ->)]]].
  - destruct (send_data_queues _ _ _ _ _ _ _ Hk Hs) as (_ & _ & H).
    destruct (result_of outs); try exact H. destruct H as [H _]. d_state (s_state r); discriminate.
  - destruct (send_trailers_queues _ _ _ _ _ _ Hk Hs) as (_ & _ & H).
    destruct (result_of outs); try exact H. destruct H as [H _]. d_state (s_state r); discriminate.
  - destruct (send_response_queues _ _ _ _ _ _ _ Hk Hs) as (_ & _ & H).
    destruct (result_of outs); try exact H. destruct H as (s' & H & _). d_state (s_state r); destruct eos; discriminate.
  - destruct (send_info_queues _ _ _ _ _ _ _ Hk Hs) as (_ & _ & H).
    destruct (result_of outs); try exact H. destruct H as [H _]. d_state (s_state r); discriminate.
Qed.

