(* Property C06, part 2, send side (Model/SendFlow.v): under the invariant of Proofs/SendFlowInv.v a live stream whose head
   DATA frame is empty or which holds assigned capacity can be popped, and every pop strictly decreases the queued work qsum
   (queued DATA octets + queued DATA frames), which is never negative: the connection task cannot spin on pops, and queued
   data with open windows cannot sit.  Receive side: Proofs/ProgressRecv.v. *)
From H2V Require Import Base.Tac Model.SendFlow Proofs.SendFlowLists Proofs.SendFlowInv.
Local Open Scope Z_scope.

Definition qm (s : sstream) : Z := sumz (s_frames s) + Z.of_nat (length (s_frames s)).

Fixpoint qsum (l : list sstream) : Z :=
  match l with [] => 0 | s :: l' => qm s + qsum l' end.

Lemma qsum_map l : qsum l = sumz (map qm l).
Proof. induction l as [|x l IH]; cbn [qsum map sumz]; congruence. Qed.

Lemma qm_nonneg s : s_ok s -> 0 <= qm s.
Proof.
  intros (_ & _ & _ & _ & K5 & _). unfold qm. pose proof (sumz_nonneg _ K5). lia.
Qed.

(* enabledness: the connection task's pop of a sendable head frame is a possible, panic-free step that emits DATA *)
Theorem send_pop_enabled st sid s f q mx :
  Inv st -> find_s sid (c_strs st) = Some s -> s_frames s = f :: q -> s_dead s = false ->
  (f = 0 \/ 0 < s_avail s) -> 0 < mx ->
  exists st' outs, step st (LPopData sid f mx) = Ok st' (OData sid (Z.min (Z.min f mx) (s_avail s)) :: outs).
Proof.
  intros HI F EQ Hdead Hsend Hmx. unfold Inv in HI. stream_facts HI F.
  assert (Hf : 0 <= f) by (rewrite EQ in K5; exact (Forall_inv K5)).
  pose proof (pop_data_spec 0 st sid f mx ltac:(lia) HI Hf ltac:(lia)) as X.
  destruct (step st (LPopData sid f mx)) as [st' outs|n|n]; [|exfalso|destruct X].
  - destruct X as (s0 & q0 & s2 & o2 & len & F0 & _ & -> & _ & _ & _ & _ & _ & _ & _ & _ & -> & _).
    rewrite F in F0. injection F0 as <-. exists st', o2. reflexivity.
  - destruct (X s q F EQ) as [(Hp & [Hx|Hx])|Hx]; [congruence|lia|lia].
Qed.

(* variant: a successful pop strictly decreases the queued work, which stays non-negative *)
Theorem send_pop_decreases st sid sz mx st' outs :
  Inv st -> 0 <= sz -> 0 < mx -> step st (LPopData sid sz mx) = Ok st' outs ->
  0 <= qsum (c_strs st') < qsum (c_strs st).
Proof.
  intros HI Hsz Hmx Hstep.
  pose proof (pop_data_spec 0 st sid sz mx ltac:(lia) HI Hsz ltac:(lia)) as X. rewrite Hstep in X.
  destruct X as (s & q & s2 & o2 & len & F & EQ & Elen & Hlen & Hlive & _ & S1 & S6 & -> & HI' & _).
  destruct HI' as (_ & _ & _ & _ & _ & _ & HF' & _).
  split.
  - rewrite qsum_map. apply sumz_nonneg, Forall_map. revert HF'. apply Forall_impl, qm_nonneg.
  - cbn [set_cwin put set_strs c_strs].
    rewrite !qsum_map, (sumz_map_upd qm s s2) by (rewrite S1, (find_s_id _ _ _ F); exact F).
    unfold qm. rewrite S6, EQ. destruct (len <? sz) eqn:El; cbn [sumz length]; lia.
Qed.
