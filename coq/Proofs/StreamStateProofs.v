(* Proofs about the model of /repo/src/proto/streams/state.rs (Model/StreamState.v) against
   RFC 9113 section 5.1 (Ref/Rfc9113Stream.v).  The control part of the state is finite (11 non-closed
   states, 4 kinds of closing cause), the payload (reason codes, stream ids, debug data, I/O kind and
   message) is unbounded: a method is treated by case analysis on the control part with the payload
   fields as variables. *)
From H2V Require Import Base.Tac Base.Bytes Model.StreamState Ref.Rfc9113Stream.
Local Open Scope N_scope.

(* full case analysis on the control part of a state / of a call *)
Ltac d_state s := destruct s as [| | | [|] [|] | [|] | [|] | [|?e|?e|?r0]].
Ltac d_op o :=
  destruct o as [[|]|[|] [|]| | | |?sid ?rr [|]|?e| | |?sid ?rr [| |]|?rr].

Lemma initiator_eqb_eq a b : initiator_eqb a b = true <-> a = b.
Proof. destruct a, b; cbn; split; congruence. Qed.

Lemma opt_bytes_eqb_eq a b : opt_bytes_eqb a b = true <-> a = b.
Proof.
  destruct a, b; cbn [opt_bytes_eqb]; rewrite ?list_N_eqb_eq; split; congruence.
Qed.

Lemma perror_eqb_eq a b : perror_eqb a b = true <-> a = b.
Proof.
  destruct a, b; cbn [perror_eqb]; try (split; congruence);
    rewrite !andb_true_iff, ?N.eqb_eq, ?list_N_eqb_eq, ?initiator_eqb_eq, ?opt_bytes_eqb_eq;
    (split; [intuition congruence | intros [=]; auto]).
Qed.

Lemma peer_eqb_eq a b : peer_eqb a b = true <-> a = b.
Proof. destruct a, b; cbn; split; congruence. Qed.

Lemma cause_eqb_eq a b : cause_eqb a b = true <-> a = b.
Proof.
  destruct a, b; cbn [cause_eqb]; rewrite ?perror_eqb_eq, ?N.eqb_eq; split; congruence.
Qed.

Lemma state_eqb_eq a b : state_eqb a b = true <-> a = b.
Proof.
  destruct a, b; cbn [state_eqb]; try (split; congruence);
    rewrite ?andb_true_iff, ?peer_eqb_eq, ?cause_eqb_eq; (split; [intuition congruence | intros [=]; auto]).
Qed.

Lemma res_eqb_eq a b : res_eqb a b = true <-> a = b.
Proof.
  destruct a as [|x|[x|]|[|]|x|], b as [|y|[y|]|[|]|y|]; cbn [res_eqb opt_N_eqb user_error_eqb];
    rewrite ?Bool.eqb_true_iff, ?N.eqb_eq, ?perror_eqb_eq; split; congruence.
Qed.

(* a transition case accepted by the check states exactly what the model computes *)
Lemma check_state_case_trans_sound dbg path from o to r :
  check_state_case (dbg, path, XTrans from o to r) = true ->
  run dbg Idle path = from /\ step dbg from o = (to, r).
Proof.
  cbn [check_state_case]. intros [<-%state_eqb_eq C]%andb_true_iff.
  destruct (step dbg (run dbg Idle path) o) as [s' r'].
  apply andb_true_iff in C as [<-%state_eqb_eq <-%res_eqb_eq]. auto.
Qed.

Definition abs (s : state) : rfc_state :=
  match s with
  | Idle => idle
  | ReservedLocal => reserved_local
  | ReservedRemote => reserved_remote
  | Open _ _ => open
  | HalfClosedLocal _ => half_closed_local
  | HalfClosedRemote _ => half_closed_remote
  | Closed _ => closed
  end.

Definition phase_of_peer (p : peer) : phase :=
  match p with AwaitingHeaders => awaiting | Streaming => body end.

(* phase of the message this endpoint sends / receives on the stream (RFC 9113 8.1) *)
Definition send_phase (s : state) : phase :=
  match s with
  | Idle | ReservedLocal => awaiting
  | Open l _ | HalfClosedRemote l => phase_of_peer l
  | _ => done
  end.

Definition recv_phase (s : state) : phase :=
  match s with
  | Idle | ReservedRemote => awaiting
  | Open _ r | HalfClosedLocal r => phase_of_peer r
  | _ => done
  end.

Definition phase_in (d : dir) (s : state) : phase :=
  match d with Send => send_phase s | Recv => recv_phase s end.

Definition hk (eos : bool) : ekind := if eos then KHES else KH.

(* the RFC event a method call stands for; connection-level endings are no event on the stream *)
Definition event_of (o : op) : option (dir * ekind) :=
  match o with
  | OSendOpen eos => Some (Send, hk eos)
  | ORecvOpen eos _ => Some (Recv, hk eos)
  | OReserveRemote => Some (Recv, KPP)
  | OReserveLocal => Some (Send, KPP)
  | ORecvClose => Some (Recv, KES)
  | OSendClose => Some (Send, KES)
  | ORecvReset _ _ _ => Some (Recv, KR)
  | OSetReset _ _ _ | OSetScheduledReset _ => Some (Send, KR)
  | OHandleError _ | ORecvEof => None
  end.

Definition res_ok (r : res) : bool :=
  match r with RUnit | RBool _ | RReason _ => true | _ => false end.

Definition is_opening (k : ekind) : bool := match k with KH | KHES => true | _ => false end.

(* how a closed model state got closed, in the RFC's terms *)
Definition how_of (s : state) : closed_how :=
  match s with
  | Closed (CError e) | Closed (ErrorAfterEndStream e) =>
    if error_is_local e then by_sent_reset else by_recv_reset
  | Closed (ScheduledLibraryReset _) => by_sent_reset
  | _ => by_end_stream
  end.

Lemma send_open_cases eos s :
  snd (send_open eos s) = RUnit \/
  send_open eos s = (s, RUserErr UnexpectedFrameType).
Proof. d_state s; destruct eos; cbn; auto. Qed.

Lemma send_open_refines eos s s' :
  send_open eos s = (s', RUnit) ->
  rfc_step (abs s) Send (hk eos) = Some (abs s') /\
  opening_ok (send_phase s) = true /\
  send_phase s' = after_opening eos false.
Proof. d_state s; destruct eos; cbn; intros [= <-]; cbn; auto. Qed.

Lemma send_open_error_iff eos s :
  send_open eos s = (s, RUserErr UnexpectedFrameType) <->
  (rfc_step (abs s) Send (hk eos) = None \/ opening_ok (send_phase s) = false).
Proof.
  d_state s; destruct eos; cbn; split; intros E; auto; try discriminate;
    try (destruct E; discriminate).
Qed.

Lemma recv_open_cases eos info s :
  (exists b, snd (recv_open eos info s) = RBool b) \/
  recv_open eos info s = (s, RProtoErr (library_go_away PROTOCOL_ERROR)).
Proof. d_state s; destruct eos, info; cbn; eauto. Qed.

(* recv_open: accepted exactly where is_recv_headers holds (the guard streams.rs tests first);
   every refusal is the connection error PROTOCOL_ERROR *)
Theorem recv_open_verdict eos info s :
  (is_recv_headers s = true /\ exists s' b, recv_open eos info s = (s', RBool b)) \/
  (is_recv_headers s = false /\
   recv_open eos info s = (s, RProtoErr (EGoAway [] PROTOCOL_ERROR Library))).
Proof. d_state s; destruct eos, info; cbn; eauto. Qed.

(* the one place where the code does not follow figure 2: a 1xx HEADERS on a promised stream leaves
   it ReservedRemote (the RFC automaton is in half-closed (local) from then on) *)
Lemma recv_open_refines eos info s s' b :
  recv_open eos info s = (s', RBool b) ->
  ((s = ReservedRemote /\ eos = false /\ info = true /\ s' = ReservedRemote) \/
   rfc_step (abs s) Recv (hk eos) = Some (abs s')) /\
  opening_ok (recv_phase s) = true /\
  recv_phase s' = after_opening eos info /\
  b = (is_idle s || state_eqb s ReservedRemote).
Proof.
  d_state s; destruct eos, info; cbn; intros [= <- <-]; cbn; repeat split; auto.
Qed.

Lemma recv_open_ok_iff eos info s :
  (exists s' b, recv_open eos info s = (s', RBool b)) <-> is_recv_headers s = true.
Proof.
  destruct (recv_open_verdict eos info s) as [[H X]|[H X]]; rewrite H; split; auto; try discriminate.
  intros (s' & b & E). rewrite X in E. discriminate E.
Qed.

Lemma recv_open_error_iff eos info s :
  recv_open eos info s = (s, RProtoErr (library_go_away PROTOCOL_ERROR)) <->
  (rfc_step (abs s) Recv (hk eos) = None \/ opening_ok (recv_phase s) = false).
Proof.
  d_state s; destruct eos, info; cbn; split; intros E; auto; try discriminate;
    try (destruct E; discriminate).
Qed.

Lemma recv_close_refines s s' :
  recv_close s = (s', RUnit) -> rfc_step (abs s) Recv KES = Some (abs s').
Proof. d_state s; cbn; intros [= <-]; reflexivity. Qed.

Lemma recv_close_cases s :
  (snd (recv_close s) = RUnit /\ rfc_step (abs s) Recv KES <> None) \/
  (recv_close s = (s, RProtoErr (library_go_away PROTOCOL_ERROR)) /\ rfc_step (abs s) Recv KES = None).
Proof. d_state s; cbn; auto; left; split; auto; discriminate. Qed.

Lemma send_close_refines s s' :
  send_close s = (s', RUnit) -> rfc_step (abs s) Send KES = Some (abs s').
Proof. d_state s; cbn; intros [= <-]; reflexivity. Qed.

Lemma send_close_cases s :
  (snd (send_close s) = RUnit /\ rfc_step (abs s) Send KES <> None) \/
  (send_close s = (s, RPanic) /\ rfc_step (abs s) Send KES = None).
Proof. d_state s; cbn; auto; left; split; auto; discriminate. Qed.

Lemma reserve_remote_cases s :
  (s = Idle /\ reserve_remote s = (ReservedRemote, RUnit) /\
   rfc_step (abs s) Recv KPP = Some reserved_remote) \/
  (reserve_remote s = (s, RProtoErr (library_go_away PROTOCOL_ERROR)) /\
   rfc_step (abs s) Recv KPP = None).
Proof. d_state s; cbn; auto. Qed.

Lemma reserve_local_cases s :
  (s = Idle /\ reserve_local s = (ReservedLocal, RUnit) /\
   rfc_step (abs s) Send KPP = Some reserved_local) \/
  (reserve_local s = (s, RUserErr UnexpectedFrameType) /\ rfc_step (abs s) Send KPP = None).
Proof. d_state s; cbn; auto. Qed.

Lemma recv_reset_never_errors sid r q s : snd (recv_reset sid r q s) = RUnit.
Proof. d_state s; destruct q; reflexivity. Qed.

Lemma recv_reset_closes sid r q s : abs (fst (recv_reset sid r q s)) = closed.
Proof. d_state s; destruct q; reflexivity. Qed.

Lemma recv_reset_refines sid r q s :
  s <> Idle -> rfc_step (abs s) Recv KR = Some (abs (fst (recv_reset sid r q s))).
Proof. d_state s; destruct q; cbn; intros NI; auto; congruence. Qed.

Lemma set_reset_refines sid r i s :
  abs (fst (set_reset sid r i s)) = closed /\
  (abs s <> idle -> abs s <> closed ->
   rfc_step (abs s) Send KR = Some (abs (fst (set_reset sid r i s)))).
Proof. split; [reflexivity|]. d_state s; cbn; intros A B; auto; congruence. Qed.

Lemma set_scheduled_reset_cases dbg r s :
  (set_scheduled_reset dbg r s = (Closed (ScheduledLibraryReset r), RUnit) /\
   (dbg = false \/ is_closed s = false)) \/
  (set_scheduled_reset dbg r s = (s, RPanic) /\ dbg = true /\ is_closed s = true).
Proof. unfold set_scheduled_reset. destruct dbg; d_state s; cbn; auto. Qed.

Lemma with_snd {A B} (p : A * B) b : snd p = b -> p = (fst p, b).
Proof. intros <-. apply surjective_pairing. Qed.

Lemma hk_is_opening eos : is_opening (hk eos) = true.
Proof. destruct eos; reflexivity. Qed.

Lemma send_reset_rfc s : rfc_step (abs s) Send KR = Some closed \/ s = Idle \/ abs s = closed.
Proof. destruct s; auto. Qed.

(* A call that succeeds is the RFC transition of its event, except in three documented situations; a
   call that fails (Err or panic) leaves the state unchanged, and its event is one the RFC forbids in
   that state, or an opening header section where 8.1 allows none. *)
Lemma step_against_rfc dbg s o d k :
  event_of o = Some (d, k) ->
  let (s', r) := step dbg s o in
  if res_ok r
  then rfc_step (abs s) d k = Some (abs s')
       \/ (s = ReservedRemote /\ o = ORecvOpen false true /\ s' = ReservedRemote)
       \/ (k = KR /\ s = Idle /\ abs s' = closed)
       \/ (k = KR /\ d = Send /\ abs s = closed /\ abs s' = closed)
  else s' = s /\
       (rfc_step (abs s) d k = None \/ (is_opening k = true /\ opening_ok (phase_in d s) = false)).
Proof.
  rewrite (surjective_pairing (step dbg s o)).
  destruct o as [eos|eos info| | | |sid rr q|e| | |sid rr i|rr]; cbn [step event_of]; intros [= <- <-].
  - destruct (send_open_cases eos s) as [R|R]; rewrite R; cbn [res_ok fst snd].
    + left. apply send_open_refines, with_snd, R.
    + apply send_open_error_iff in R. pose proof (hk_is_opening eos). tauto.
  - destruct (recv_open_cases eos info s) as [[b R]|R]; rewrite R; cbn [res_ok fst snd].
    + destruct (recv_open_refines _ _ _ _ _ (with_snd _ _ R)) as [[(-> & -> & -> & ->)|T] _]; auto.
    + apply recv_open_error_iff in R. pose proof (hk_is_opening eos). tauto.
  - destruct (reserve_remote_cases s) as [(-> & R & T)|[R T]]; rewrite R; cbn [res_ok snd]; auto.
  - destruct (reserve_local_cases s) as [(-> & R & T)|[R T]]; rewrite R; cbn [res_ok snd]; auto.
  - destruct (recv_close_cases s) as [[R _]|[R T]]; rewrite R; cbn [res_ok fst snd]; auto.
    left. apply recv_close_refines, with_snd, R.
  - rewrite recv_reset_never_errors.
    destruct s; try (left; apply recv_reset_refines; discriminate).
    right; right; left. auto using recv_reset_closes.
  - destruct (send_close_cases s) as [[R _]|[R T]]; rewrite R; cbn [res_ok fst snd]; auto.
    left. apply send_close_refines, with_snd, R.
  - destruct (send_reset_rfc s) as [T|[T|T]]; cbn; auto 7.
  - destruct (set_scheduled_reset_cases dbg rr s) as [[R _]|(R & _ & C)]; rewrite R; cbn [res_ok fst snd].
    + destruct (send_reset_rfc s) as [T|[T|T]]; cbn; auto 7.
    + split; [reflexivity|]. left. destruct s; try discriminate C. reflexivity.
Qed.

Theorem step_error_is_forbidden dbg s o s' r d k :
  step dbg s o = (s', r) -> event_of o = Some (d, k) -> res_ok r = false ->
  s' = s /\
  (rfc_step (abs s) d k = None \/ (is_opening k = true /\ opening_ok (phase_in d s) = false)).
Proof.
  intros S E K. pose proof (step_against_rfc dbg s o d k E) as H. rewrite S, K in H. exact H.
Qed.

Lemma handle_error_closes e s : abs (fst (handle_error e s)) = closed.
Proof. d_state s; reflexivity. Qed.

Lemma recv_eof_closes s : abs (fst (recv_eof s)) = closed.
Proof. d_state s; reflexivity. Qed.

Lemma run_app dbg s os1 os2 : run dbg s (os1 ++ os2) = run dbg (run dbg s os1) os2.
Proof. revert s; induction os1 as [|o os1 IH]; intros s; cbn [run app]; auto. Qed.

Lemma run_invariant (P : state -> Prop) dbg :
  (forall s o, P s -> P (fst (step dbg s o))) ->
  forall os s, P s -> P (run dbg s os).
Proof.
  intros Hstep os. induction os as [|o os IH]; intros s Hs; cbn [run]; auto.
Qed.

Lemma step_keeps_closed dbg s o : is_closed s = true -> is_closed (fst (step dbg s o)) = true.
Proof.
  d_state s; cbn [is_closed]; try discriminate; intros _; d_op o; try destruct dbg; reflexivity.
Qed.

Lemma step_keeps_send_closed dbg s o :
  is_send_closed s = true -> is_send_closed (fst (step dbg s o)) = true.
Proof.
  d_state s; cbn [is_send_closed]; try discriminate; intros _; d_op o; try destruct dbg; reflexivity.
Qed.

Theorem closed_forever dbg s os : is_closed s = true -> is_closed (run dbg s os) = true.
Proof.
  intros C. apply (run_invariant (fun s => is_closed s = true)); auto.
  intros s0 o. apply step_keeps_closed.
Qed.

Theorem send_closed_forever dbg s os :
  is_send_closed s = true -> is_send_closed (run dbg s os) = true.
Proof.
  intros C. apply (run_invariant (fun s => is_send_closed s = true)); auto.
  intros s0 o. apply step_keeps_send_closed.
Qed.

(* a state with the send half closed lets nothing be started or continued: send_open is refused,
   the state is not "send streaming" (the guard of send_data / send_trailers), and a second
   END_STREAM would be a panic, not a frame *)
Lemma send_closed_is_silent s :
  is_send_closed s = true ->
  is_send_streaming s = false /\
  (forall eos, send_open eos s = (s, RUserErr UnexpectedFrameType)) /\
  send_close s = (s, RPanic) /\
  reserve_local s = (s, RUserErr UnexpectedFrameType) /\
  sender_may (abs s) DATA = false /\ sender_may (abs s) HEADERS = false /\
  sender_may (abs s) PUSH_PROMISE = false.
Proof.
  d_state s; cbn [is_send_closed]; try discriminate; intros _; cbn;
    repeat split; auto; intros [|]; reflexivity.
Qed.

Lemma end_stream_closes_send_half s s1 :
  (send_open true s = (s1, RUnit) \/ send_close s = (s1, RUnit)) -> is_send_closed s1 = true.
Proof.
  intros [E|E]; d_state s; cbn in E; inversion E; subst; reflexivity.
Qed.

Definition is_ending (o : op) : bool :=
  match o with
  | ORecvReset _ _ _ | OHandleError _ | ORecvEof | OSetReset _ _ _ => true
  | _ => false
  end.

Lemma ending_closes dbg s o : is_ending o = true -> is_closed (fst (step dbg s o)) = true.
Proof.
  d_op o; cbn [is_ending]; try discriminate; intros _; d_state s; reflexivity.
Qed.

Lemma closed_is_silent s :
  is_closed s = true ->
  is_send_streaming s = false /\ is_recv_streaming s = false /\ is_recv_headers s = false /\
  (forall eos, send_open eos s = (s, RUserErr UnexpectedFrameType)) /\
  (forall t, sender_may (abs s) t = true -> t = PRIORITY) /\
  (ensure_recv_open s = RBool false \/ exists e, ensure_recv_open s = RProtoErr e).
Proof.
  destruct s as [| | | | | |[]]; try discriminate; intros _; cbn; repeat split; eauto;
    intros []; cbn; congruence.
Qed.

Definition relabels (dbg : bool) (o : op) : bool :=
  match o with
  | ORecvReset _ _ true | OSetReset _ _ _ => true
  | OSetScheduledReset _ => negb dbg
  | _ => false
  end.

(* a reset the library has only scheduled (not yet written) is not a cause the peer can see *)
Definition unsent (c : cause) : bool :=
  match c with ScheduledLibraryReset _ => true | _ => false end.

(* Closed is absorbing with its cause, except for the three documented relabellings; a reset that is
   only scheduled additionally gives way to the peer's RST_STREAM (fix 036e89b of /repo) *)
Lemma closed_cause_stable dbg c o :
  unsent c = false ->
  relabels dbg o = false -> fst (step dbg (Closed c) o) = Closed c.
Proof.
  intros U. d_op o; destruct dbg; cbn [relabels negb]; try discriminate; intros _; destruct c;
    try discriminate U; reflexivity.
Qed.

Definition relabels_unsent (dbg : bool) (o : op) : bool :=
  relabels dbg o || match o with ORecvReset _ _ _ | OHandleError _ => true | _ => false end.

Lemma scheduled_cause_stable dbg r o :
  relabels_unsent dbg o = false ->
  fst (step dbg (Closed (ScheduledLibraryReset r)) o) = Closed (ScheduledLibraryReset r).
Proof.
  unfold relabels_unsent. d_op o; destruct dbg; cbn [relabels negb orb]; try discriminate; intros _; reflexivity.
Qed.

Lemma run_fixed dbg s (admitted : op -> bool) os :
  (forall o, admitted o = true -> fst (step dbg s o) = s) ->
  forallb admitted os = true -> run dbg s os = s.
Proof.
  intros K. induction os as [|o os IH]; cbn [forallb run]; auto.
  intros [F1 F2]%andb_true_iff. rewrite K; auto.
Qed.

Theorem closed_cause_forever dbg c os :
  unsent c = false ->
  forallb (fun o => negb (relabels dbg o)) os = true -> run dbg (Closed c) os = Closed c.
Proof.
  intros U. apply run_fixed. intros o K. apply closed_cause_stable, negb_true_iff, K. exact U.
Qed.

Theorem recv_close_verdict s h :
  (receiver_must (abs s) h DATA = accept /\ snd (recv_close s) = RUnit /\
   rfc_step (abs s) Recv KES = Some (abs (fst (recv_close s)))) \/
  (receiver_must (abs s) h DATA <> accept /\ rfc_step (abs s) Recv KES = None /\
   recv_close s = (s, RProtoErr (EGoAway [] PROTOCOL_ERROR Library))).
Proof.
  d_state s; cbn; auto; right; repeat split; auto; destruct h; discriminate.
Qed.

Lemma recv_close_conn_error_required s h :
  receiver_must (abs s) h DATA = conn_error ->
  recv_close s = (s, RProtoErr (library_go_away PROTOCOL_ERROR)).
Proof. intros A. destruct (recv_close_verdict s h) as [[B _]|(_ & _ & E)]; [congruence|exact E]. Qed.

(* frames racing with a reset we sent: is_local_error is exactly "closed by our own reset / error",
   the condition under which the RFC wants later frames discarded, not treated as errors *)
Theorem local_error_iff s :
  is_local_error s = true <-> (abs s = closed /\ is_reset s = true /\ how_of s = by_sent_reset).
Proof.
  d_state s; try destruct e as [? ? []|? ? []|]; cbn; intuition discriminate.
Qed.

Definition both_modes (f : poll_reset -> res) (r : res) : Prop :=
  f PRAwaitingHeaders = r /\ f PRStreaming = r.

(* the peer's RST_STREAM(sid, r), for every r: *)
Theorem recv_reset_surfaces sid r q s :
  is_closed s = false \/ q = true ->
  let s' := fst (recv_reset sid r q s) in
  both_modes (fun m => ensure_reason m s') (RReason (Some r)) /\
  is_remote_reset s' = true /\ is_reset s' = true /\ is_local_error s' = false /\
  (is_recv_end_stream s = false ->
     s' = Closed (CError (EReset sid r Remote)) /\
     ensure_recv_open s' = RProtoErr (EReset sid r Remote)) /\
  (is_recv_end_stream s = true ->
     s' = Closed (ErrorAfterEndStream (EReset sid r Remote)) /\
     ensure_recv_open s' = RBool false /\ is_recv_end_stream s' = true).
Proof.
  intros G. unfold both_modes.
  d_state s; destruct q; cbn in G |- *; try (destruct G; discriminate);
    repeat split; auto; intros; discriminate.
Qed.

(* a connection-level error e (GOAWAY received or sent, I/O failure, connection-level reset):
   [poll_reset] always reports e; a read reports e unless the peer's message was already complete
   (HalfClosedRemote), then it ends cleanly and only the cause records e *)
Theorem handle_error_surfaces e s :
  is_closed s = false ->
  let s' := fst (handle_error e s) in
  (is_recv_end_stream s = false ->
     s' = Closed (CError e) /\ ensure_recv_open s' = RProtoErr e) /\
  (is_recv_end_stream s = true ->
     s' = Closed (ErrorAfterEndStream e) /\ ensure_recv_open s' = RBool false /\
     is_recv_end_stream s' = true) /\
  is_local_error s' = error_is_local e /\
  match e with
  | EReset _ r _ | EGoAway _ r _ => both_modes (fun m => ensure_reason m s') (RReason (Some r))
  | EIo _ _ => both_modes (fun m => ensure_reason m s') (RProtoErr e)
  end.
Proof.
  intros NC. unfold both_modes.
  d_state s; cbn in NC |- *; try discriminate; destruct e; cbn;
    repeat split; auto; intros; discriminate.
Qed.

Definition conn_ending (o : op) : bool :=
  match o with OHandleError _ | ORecvEof => true | _ => false end.

(* the code a closed stream's cause carries, as poll_reset reports it *)
Definition reason_report (e : perror) : res :=
  match e with
  | EReset _ r _ | EGoAway _ r _ => RReason (Some r)
  | EIo _ _ => RProtoErr e
  end.

(* A stream whose peer had finished its message (is_recv_end_stream: HalfClosedRemote,
   Closed(EndStream), Closed(ErrorAfterEndStream)) keeps the clean end when the connection ends:
   after handle_error / recv_eof and every later method sequence without a relabelling call, a read
   ends with Ok(false); the error is still recorded as the cause and poll_reset reports its code. *)
Theorem completed_message_after_connection_end dbg s o os :
  conn_ending o = true -> is_recv_end_stream s = true ->
  forallb (fun o' => negb (relabels dbg o')) os = true ->
  let s1 := fst (step dbg s o) in
  let s2 := run dbg s1 os in
  s2 = s1 /\ is_closed s2 = true /\
  is_recv_end_stream s2 = true /\ ensure_recv_open s2 = RBool false /\
  (is_closed s = true -> s1 = s) /\
  (is_closed s = false ->
   exists p e, s = HalfClosedRemote p /\ s1 = Closed (ErrorAfterEndStream e) /\
               (o = OHandleError e \/ (o = ORecvEof /\ e = eof_error)) /\
               forall m, ensure_reason m s2 = reason_report e).
Proof.
  intros E R F.
  (* o is handle_error or recv_eof; s is HalfClosedRemote, Closed EndStream or Closed (ErrorAfterEndStream _) *)
  destruct o as [| | | | | |e| | | |]; try discriminate E;
    destruct s as [| | | | |p|[|e0|e0|r0]]; try discriminate R.
  (* in each case the call leaves a Closed state whose cause was sent, so the later calls leave it alone *)
  all: cbn [step handle_error recv_eof fst]; rewrite closed_cause_forever by auto.
  (* what is left is computation; for the last conjunct: on Closed (ErrorAfterEndStream e), ensure_reason
     is the match of reason_report *)
  all: repeat split; try discriminate; intros _; exists p; eexists; repeat split; auto.
Qed.

(* The defect this repaired (h2 before commit 804dd22 "fix: keep the clean end of a completely received
   message when the connection ends"): handle_error / recv_eof had no HalfClosedRemote arm. *)
Definition handle_error_old (e : perror) (s : state) : state * res :=
  match s with
  | Closed _ => (s, RUnit)
  | _ => (Closed (CError e), RUnit)
  end.

Theorem fix_needed :
  ~ (forall e s, is_recv_end_stream s = true ->
                 ensure_recv_open (fst (handle_error_old e s)) = RBool false) /\
  (forall e s, is_recv_end_stream s = true ->
               ensure_recv_open (fst (handle_error e s)) = RBool false) /\
  (forall e p, is_recv_end_stream (HalfClosedRemote p) = true /\
               ensure_recv_open (HalfClosedRemote p) = RBool false /\
               ensure_recv_open (fst (handle_error_old e (HalfClosedRemote p))) = RProtoErr e).
Proof.
  split; [|split].
  - intros A. specialize (A eof_error (HalfClosedRemote Streaming) eq_refl).
    vm_compute in A. discriminate.
  - intros e s R. d_state s; cbn in R |- *; try discriminate; reflexivity.
  - intros e p. destruct p; repeat split.
Qed.

(* local resets forget it as well *)
Lemma local_reset_forgets_end_stream sid r i s :
  is_recv_end_stream (fst (set_reset sid r i s)) = false /\
  ensure_recv_open (fst (set_reset sid r i s)) = RProtoErr (EReset sid r i).
Proof. split; reflexivity. Qed.

(* client request/response with bodies *)
Example ex_client_exchange :
  run true Idle [OSendOpen false; OSendClose; ORecvOpen false true; ORecvOpen false false; ORecvClose]
  = Closed EndStream.
Proof. reflexivity. Qed.

(* server: request without body, response with body *)
Example ex_server_exchange :
  run true Idle [ORecvOpen true false; OSendOpen false; OSendClose] = Closed EndStream.
Proof. reflexivity. Qed.

(* push: promised stream on the server and on the client *)
Example ex_push_server : run true Idle [OReserveLocal; OSendOpen false; OSendClose] = Closed EndStream.
Proof. reflexivity. Qed.
Example ex_push_client :
  run true Idle [OReserveRemote; ORecvOpen false false; ORecvClose] = Closed EndStream.
Proof. reflexivity. Qed.

(* the 1xx oddity *)
Example ex_push_client_1xx : run true Idle [OReserveRemote; ORecvOpen false true] = ReservedRemote.
Proof. reflexivity. Qed.

Example ex_send_open_refines :
  send_open false Idle = (Open Streaming AwaitingHeaders, RUnit) /\
  send_open true (HalfClosedRemote AwaitingHeaders) = (Closed EndStream, RUnit).
Proof. split; reflexivity. Qed.

Example ex_recv_open_refines :
  recv_open false false (Open Streaming AwaitingHeaders) = (Open Streaming Streaming, RBool false) /\
  recv_open true false Idle = (HalfClosedRemote AwaitingHeaders, RBool true).
Proof. split; reflexivity. Qed.

Example ex_errors :
  step true (HalfClosedLocal Streaming) (OSendOpen false)
    = (HalfClosedLocal Streaming, RUserErr UnexpectedFrameType) /\
  step true (HalfClosedRemote Streaming) ORecvClose
    = (HalfClosedRemote Streaming, RProtoErr (library_go_away PROTOCOL_ERROR)) /\
  step true Idle OSendClose = (Idle, RPanic) /\
  step true (Closed EndStream) (OSetScheduledReset 8) = (Closed EndStream, RPanic) /\
  step false (Closed EndStream) (OSetScheduledReset 8) = (Closed (ScheduledLibraryReset 8), RUnit).
Proof. repeat split. Qed.

Example ex_after_end_stream :
  send_close (Open Streaming Streaming) = (HalfClosedLocal Streaming, RUnit) /\
  send_open true Idle = (HalfClosedLocal AwaitingHeaders, RUnit).
Proof. split; reflexivity. Qed.

Example ex_recv_reset_surfaces :
  is_closed (Open Streaming Streaming) = false /\
  fst (recv_reset 5 3735928559 false (Open Streaming Streaming))
    = Closed (CError (EReset 5 3735928559 Remote)) /\
  fst (recv_reset 5 3735928559 true (Closed EndStream))
    = Closed (ErrorAfterEndStream (EReset 5 3735928559 Remote)) /\
  fst (recv_reset 5 0 true (HalfClosedRemote Streaming))
    = Closed (ErrorAfterEndStream (EReset 5 0 Remote)).
Proof. repeat split. Qed.

Example ex_go_away_surfaces :
  ensure_recv_open (fst (handle_error (EGoAway [1; 2; 3] 4294967295 Remote) (HalfClosedLocal Streaming)))
    = RProtoErr (EGoAway [1; 2; 3] 4294967295 Remote) /\
  ensure_reason PRStreaming (fst (handle_error (EGoAway [1; 2; 3] 4294967295 Remote) (HalfClosedLocal Streaming)))
    = RReason (Some 4294967295).
Proof. split; reflexivity. Qed.

(* the C07 case: the request was completely received, then the connection failed *)
Example ex_completed_then_eof :
  is_recv_end_stream (HalfClosedRemote Streaming) = true /\
  ensure_recv_open (HalfClosedRemote Streaming) = RBool false /\
  fst (recv_eof (HalfClosedRemote Streaming)) = Closed (ErrorAfterEndStream eof_error) /\
  ensure_recv_open (fst (recv_eof (HalfClosedRemote Streaming))) = RBool false /\
  ensure_recv_open (fst (recv_eof (Closed EndStream))) = RBool false /\
  ensure_recv_open (fst (recv_eof (Open Streaming Streaming))) = RProtoErr eof_error.
Proof. repeat split. Qed.

Example ex_no_relabel :
  forallb (fun o => negb (relabels true o)) [ORecvReset 1 2 false; OHandleError eof_error; ORecvEof;
                                              OSendOpen true; OSetScheduledReset 3] = true.
Proof. reflexivity. Qed.

Example ex_local_error :
  is_local_error (Closed (CError (EReset 1 8 Library))) = true /\
  is_local_error (Closed (CError (EReset 1 8 Remote))) = false.
Proof. split; reflexivity. Qed.
