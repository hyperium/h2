(* Bytes are natural numbers N below 256; byte strings are lists.  Big-endian
   integers are built with multiplication and split with div/mod (no shifts). *)
From H2V Require Import Base.Tac.
Local Open Scope N_scope.

Definition byte_ok (b : N) : bool := b <? 256.
Definition bytes_ok (l : list N) : bool := forallb byte_ok l.

Lemma bytes_ok_cons b l : bytes_ok (b :: l) = true <-> b < 256 /\ bytes_ok l = true.
Proof.
  unfold bytes_ok, byte_ok. cbn [forallb]. rewrite andb_true_iff, N.ltb_lt. reflexivity.
Qed.

Lemma bytes_ok_app a b : bytes_ok (a ++ b) = bytes_ok a && bytes_ok b.
Proof. apply forallb_app. Qed.

(* big-endian value of a byte string *)
Fixpoint be_value_acc (acc : N) (l : list N) : N :=
  match l with
  | [] => acc
  | b :: l' => be_value_acc (acc * 256 + b) l'
  end.
Definition be_value (l : list N) : N := be_value_acc 0 l.

(* big-endian rendering of [v] on [n] bytes (v taken modulo 256^n) *)
Fixpoint be_bytes (n : nat) (v : N) : list N :=
  match n with
  | O => []
  | S n' => (v / 256 ^ (N.of_nat n')) mod 256 :: be_bytes n' v
  end.

Definition u8  (v : N) : list N := be_bytes 1 v.
Definition u16 (v : N) : list N := be_bytes 2 v.
Definition u24 (v : N) : list N := be_bytes 3 v.
Definition u32 (v : N) : list N := be_bytes 4 v.

(* lists of N, equality test *)
Fixpoint list_N_eqb (a b : list N) : bool :=
  match a, b with
  | [], [] => true
  | x :: a', y :: b' => (x =? y) && list_N_eqb a' b'
  | _, _ => false
  end.

Lemma list_N_eqb_eq a b : list_N_eqb a b = true <-> a = b.
Proof.
  revert b; induction a as [|x a IH]; intros [|y b]; cbn [list_N_eqb].
  - split; auto.
  - split; congruence.
  - split; congruence.
  - rewrite andb_true_iff, N.eqb_eq, IH. split.
    + intros [-> ->]; auto.
    + intros H; inversion H; auto.
Qed.

Lemma list_N_eqb_refl l : list_N_eqb l l = true.
Proof. apply list_N_eqb_eq. reflexivity. Qed.

(* index of failing cases, used by every correspondence file: the harness writes a list of
   cases, [failing f cases] evaluates to the indices whose check is false. *)
Fixpoint failing_from {A} (f : A -> bool) (i : N) (l : list A) : list N :=
  match l with
  | [] => []
  | x :: l' => if f x then failing_from f (i + 1) l' else i :: failing_from f (i + 1) l'
  end.
Definition failing {A} (f : A -> bool) (l : list A) : list N := failing_from f 0 l.
